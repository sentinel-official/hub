(* C07: every owner-restricted message that is accepted was sent by the owner of the
   record it changes (accepted => authorised); anything else is [ORejected], which by
   construction of [step] leaves the state unchanged. *)
From Hub Require Import Base.Prelude Base.Arith Model.Types Model.Keeper Model.Handlers Model.Hooks Model.Step.
From Hub Require Import Proofs.Tactics Proofs.Effects Proofs.Frames Proofs.KeysInv.

Lemma step_tx_ok s m s' : step s (OTx m) = OOk s' -> validate_basic m = true /\ handle (clear_events s) m = Ok s'.
Proof. exact (step_inv s (OTx m) s'). Qed.

Lemma ta_eqb_true a b : ta_eqb a b = true -> a = b.
Proof. unfold ta_eqb. apply bool_decide_eq_true. Qed.

(** * plans: status, links *)

Theorem auth_plan_update_status s from id st s' :
  step s (OTx (MPlanUpdateStatus from id st)) = OOk s' ->
  exists p, get_plan s id = Some p /\ from = canon RProv (pl_prov p).
Proof.
  intros H. apply step_tx_ok in H as [_ H]. simpl in H. unfold h_plan_update_status in H.
  change (get_plan (clear_events s) id) with (get_plan s id) in H.
  destruct (get_plan s id) as [p|]; [|discriminate]. apply rbind_ok in H as (u & Ha & _).
  apply ensure_ok, ta_eqb_true in Ha. eauto.
Qed.

Theorem auth_plan_link s from id nd s' :
  step s (OTx (MPlanLink from id nd)) = OOk s' ->
  exists p, get_plan s id = Some p /\ from = canon RProv (pl_prov p).
Proof.
  intros H. apply step_tx_ok in H as [_ H]. simpl in H. unfold h_plan_link in H.
  change (get_plan (clear_events s) id) with (get_plan s id) in H.
  destruct (get_plan s id) as [p|]; [|discriminate]. apply rbind_ok in H as (u & Ha & _).
  apply ensure_ok, ta_eqb_true in Ha. eauto.
Qed.

Theorem auth_plan_unlink s from id nd s' :
  step s (OTx (MPlanUnlink from id nd)) = OOk s' ->
  exists p, get_plan s id = Some p /\ from = canon RProv (pl_prov p).
Proof.
  intros H. apply step_tx_ok in H as [_ H]. simpl in H. unfold h_plan_unlink in H.
  change (get_plan (clear_events s) id) with (get_plan s id) in H.
  destruct (get_plan s id) as [p|]; [|discriminate]. apply rbind_ok in H as (u & Ha & _).
  apply ensure_ok, ta_eqb_true in Ha. eauto.
Qed.

(** * subscriptions: cancel, share *)

Lemma ta_valid_role r t : ta_valid r t = true -> ta_role t = r.
Proof. unfold ta_valid. repeat rewrite andb_true_iff. intros [[Hr _] _]. apply bool_decide_eq_true in Hr. exact Hr. Qed.

Theorem auth_sub_cancel s from id s' :
  step s (OTx (MSubCancel from id)) = OOk s' ->
  exists sb, subs s !! id = Some sb /\ ta_bytes from = sb_addr sb /\ ta_role from = RAcc.
Proof.
  intros H. apply step_tx_ok in H as [Hv H]. destruct (h_sub_cancel_effect _ _ _ _ H) as (sb & s1 & Hsb & _ & Hown & _).
  simpl in Hv. apply andb_true_iff in Hv as [Hv _]. exists sb. auto using ta_valid_role.
Qed.

Theorem auth_sub_allocate s from id to bytes s' :
  step s (OTx (MSubAllocate from id to bytes)) = OOk s' ->
  exists sb, subs s !! id = Some sb /\ ta_bytes from = sb_addr sb /\ ta_role from = RAcc.
Proof.
  intros H. apply step_tx_ok in H as [Hv H]. destruct (h_sub_allocate_effect _ _ _ _ _ _ H) as (sb & fal & E). cbv zeta in E.
  destruct E as (Hsb & _ & Hown & _). simpl in Hv. repeat rewrite andb_true_iff in Hv. destruct Hv as [[[[Hv _] _] _] _].
  exists sb. auto using ta_valid_role.
Qed.

(** * sessions: end, usage report, start on a pay-as-you-go subscription *)

Theorem auth_sess_end s from id rating s' :
  step s (OTx (MSessEnd from id rating)) = OOk s' ->
  exists x, sessions s !! id = Some x /\ from = canon RAcc (ss_addr x).
Proof.
  intros H. apply step_tx_ok in H as [_ H]. destruct (h_sess_end_effect _ _ _ _ H) as (x & Hx & _ & Hown & _). eauto.
Qed.

(* usage reports: only the session's node, and under proof verification only with a valid
   signature of the session's subscriber over exactly the reported figures ([sig_ok] is the
   verdict of the real verifier for (session id, upload, download, duration) and that key) *)
Theorem auth_sess_update s from id up down duration sig_len sig_ok s' :
  step s (OTx (MSessUpdate from id up down duration sig_len sig_ok)) = OOk s' ->
  exists x, sessions s !! id = Some x /\ from = canon RNode (ss_node x) /\
            (p_sess_proof (pars s) = true -> sig_ok = true).
Proof.
  intros H. apply step_tx_ok in H as [_ H]. destruct (h_sess_update_effect _ _ _ _ _ _ _ _ H) as (x & Hx & _ & Hown & Hp & _). eauto.
Qed.

Theorem auth_sess_start_node_subscription s from id nd s' sb n g h d :
  step s (OTx (MSessStart from id nd)) = OOk s' ->
  subs s !! id = Some sb -> sb_kind sb = KNode n g h d -> from = canon RAcc (sb_addr sb).
Proof.
  intros H Hsb Hk. apply step_tx_ok in H as [_ H].
  destruct (h_sess_start_effect _ _ _ _ _ H) as (sb0 & n0 & latest & Hsb0 & _ & _ & _ & _ & _ & Hcov & _).
  change (subs (clear_events s)) with (subs s) in Hsb0. rewrite Hsb in Hsb0. injection Hsb0 as <-. rewrite Hk in Hcov. apply Hcov.
Qed.

(** * swaps: only the configured approver *)

Theorem auth_swap s from hash receiver amount s' :
  step s (OTx (MSwap from hash receiver amount)) = OOk s' -> p_swap_approver (pars s) = from.
Proof.
  intros H. apply step_tx_ok in H as [_ H]. destruct (h_swap_effect _ _ _ _ _ _ H) as (s1 & s2 & E). apply E.
Qed.

(** * providers and nodes: a message acts on the sender's own record only *)


Theorem auth_prov_update_isolated s from n i w d ok st s' :
  kinv s -> step s (OTx (MProvUpdate from n i w d ok st)) = OOk s' ->
  forall a, a <> ta_bytes from -> prov_act s' !! a = prov_act s !! a /\ prov_inact s' !! a = prov_inact s !! a.
Proof.
  intros Hi H a Hne. apply step_tx_ok in H as [_ H]. simpl in H. unfold h_prov_update in H.
  change (get_provider (clear_events s) (ta_bytes from)) with (get_provider s (ta_bytes from)) in H.
  destruct (get_provider s (ta_bytes from)) as [p|] eqn:Hg; [|discriminate].
  destruct (get_provider_kinv _ _ _ (ki_pv _ Hi) Hg) as [Ea _].
  match type of H with (let '(s1, p2) := ?pp in _) = _ => destruct pp as [s1 p2] eqn:Ep end.
  apply rbind_ok in H as (s2 & Hset & H). injection H as <-.
  assert (G : prov_act s1 !! a = prov_act s !! a /\ prov_inact s1 !! a = prov_inact s !! a /\ pv_addr p2 = ta_bytes from).
  { repeat case_bool_decide; injection Ep as <- <-; simpl; rewrite ?lookup_delete_ne by congruence; auto. }
  destruct G as (G1 & G2 & G3).
  unfold set_provider in Hset. destruct (pv_status p2); try discriminate; injection Hset as <-; simpl;
    rewrite ?lookup_insert_ne by congruence; auto.
Qed.

Lemma set_node_other s n s' a :
  set_node s n = Ok s' -> a <> nd_addr n -> node_act s' !! a = node_act s !! a /\ node_inact s' !! a = node_inact s !! a.
Proof.
  unfold set_node. destruct (nd_status n); try discriminate; intros [= <-] Hne; simpl; rewrite ?lookup_insert_ne by congruence; auto.
Qed.

Theorem auth_node_update_details_isolated s from gb hr url ok s' :
  kinv s -> step s (OTx (MNodeUpdateDetails from gb hr url ok)) = OOk s' ->
  forall a, a <> ta_bytes from -> node_act s' !! a = node_act s !! a /\ node_inact s' !! a = node_inact s !! a.
Proof.
  intros Hi H a Hne. apply step_tx_ok in H as [_ H]. simpl in H. unfold h_node_update_details in H.
  apply rbind_ok in H as (u1 & _ & H). apply rbind_ok in H as (u2 & _ & H).
  change (get_node (clear_events s) (ta_bytes from)) with (get_node s (ta_bytes from)) in H.
  destruct (get_node s (ta_bytes from)) as [n|] eqn:Hg; [|discriminate].
  destruct (get_node_kinv _ _ _ (ki_node _ Hi) Hg) as [Ea _].
  apply rbind_ok in H as (s1 & Hset & H). injection H as <-.
  apply (set_node_other _ _ _ a) in Hset; [exact Hset|]. simpl. congruence.
Qed.

Theorem auth_node_update_status_isolated s from st s' :
  kinv s -> step s (OTx (MNodeUpdateStatus from st)) = OOk s' ->
  forall a, a <> ta_bytes from -> node_act s' !! a = node_act s !! a /\ node_inact s' !! a = node_inact s !! a.
Proof.
  intros Hi H a Hne. apply step_tx_ok in H as [_ H]. destruct (h_node_update_status_effect _ _ _ _ H) as (n & Hg & _ & ->).
  destruct (get_node_kinv _ _ _ (ki_node _ Hi) Hg) as [Ea _].
  cbn [node_status_state node_act node_inact emit set]. rewrite Ea.
  repeat case_bool_decide; rewrite ?lookup_insert_ne, ?lookup_delete_ne by congruence; auto.
Qed.

(* registration creates the sender's own record and touches no other *)
Theorem auth_node_register_isolated s from gb hr url ok s' :
  step s (OTx (MNodeRegister from gb hr url ok)) = OOk s' ->
  forall a, a <> ta_bytes from -> node_act s' !! a = node_act s !! a /\ node_inact s' !! a = node_inact s !! a.
Proof.
  intros H a Hne. apply step_tx_ok in H as [_ H]. destruct (h_node_register_effect _ _ _ _ _ _ H) as (s1 & _ & _ & _ & Hf & ->).
  destruct (keeps_node _ _ _ (fund_pool_keeps _ _ _ _ Hf) eq_refl) as (E1 & E2 & _).
  unfold node_register_state, new_node. simpl. rewrite E1, E2, lookup_insert_ne by congruence. auto.
Qed.
