(* C12: the per-module round-trip theorems of GenesisRT.v hold for EVERY REACHABLE STATE: their premises
   (records under their own keys and in the partition of their status, exact indices, valid node
   addresses, the plan counter pointing at the newest plan, swaps keyed by their 32-byte hash, schedule
   entries keyed by their timestamp) are invariants of every history from genesis. *)
From Hub Require Import Base.Prelude Base.Arith Model.Types Model.Keeper Model.Handlers Model.Hooks Model.Step Model.Genesis.
From Hub Require Import Proofs.Tactics Proofs.Sorting Proofs.Frames Proofs.KeysInv Proofs.Lifecycle Proofs.Auth Proofs.IndexSess Proofs.IndexNode
  Proofs.InvDefs Proofs.IndexSub Proofs.Listing Proofs.IndexPlan Proofs.IndexAll Proofs.Ledger2 Proofs.Range Proofs.GenesisRT Proofs.Effects.

Lemma h_swap_swaps s from hash receiver amount s' :
  h_swap s from hash receiver amount = Ok s' ->
  exists q, int_quo amount 100 = Ok q /\ 0 < q /\ swaps s !! hash = None /\
    swaps s' = <[hash := {| sw_hash := hash; sw_receiver := receiver; sw_amount := (p_swap_denom (pars s), q) |}]> (swaps s).
Proof.
  intros H. destruct (Effects.h_swap_effect _ _ _ _ _ _ H) as (s1 & s2 & E). cbv zeta in E.
  destruct E as (_ & _ & Hn & _ & Hm & Hs & ->). exists (Z.quot amount 100). split; [reflexivity|]. split; [|split; [exact Hn|]].
  - unfold bank_mint in Hm. cbn [snd] in Hm. destruct (Z.leb_spec (Z.quot amount 100) 0); [discriminate|assumption].
  - simpl. rewrite (keeps_swap _ _ _ (bank_send_to_account_keeps _ _ _ _ _ _ Hs) eq_refl), (keeps_swap _ _ _ (bank_mint_keeps _ _ _ _ _ Hm) eq_refl).
    reflexivity.
Qed.

(** * the extra store facts the genesis code relies on *)

Definition node_addr_ok (n : node) : Prop := addr_ok (nd_addr n) = true.
Definition nodes_addr_ok (s : state) : Prop := forall n, stored_node s n -> node_addr_ok n.
Definition plan_count_top (s : state) : Prop := plan_count s = 0 \/ is_Some (get_plan s (plan_count s)).

Record store_inv (s : state) : Prop := {
  si_nodes : nodes_addr_ok s;
  si_count : plan_count_top s;
  si_swaps : swap_store_ok s;
  si_infl : infl_store_ok s }.

Lemma ta_valid_addr_ok r t : ta_valid r t = true -> addr_ok (ta_bytes t) = true.
Proof. unfold ta_valid, addr_ok. rewrite !andb_true_iff. tauto. Qed.

Lemma nao_keeps T s s' : keeps T s s' -> touched GNode T = false -> nodes_addr_ok s -> nodes_addr_ok s'.
Proof. intros Hk Ht Hn n Hx. exact (Hn n (stored_node_keeps _ _ _ _ Hk Ht Hx)). Qed.

(* the handlers never change the address of a node record *)
Lemma nao_handle s m s' : nodes_addr_ok s -> validate_basic m = true -> handle s m = Ok s' -> nodes_addr_ok s'.
Proof.
  intros Hn Hv H. pose proof (handle_frame _ _ _ H) as Hk. destruct m; simpl in H, Hv.
  all: try exact (nao_keeps _ _ _ Hk eq_refl Hn).
  - destruct (vb_node_register _ _ _ _ _ Hv) as (Hf & _).
    intros n Hx. destruct (h_node_register_written _ _ _ _ _ _ H n Hx) as [->|Hx0]; [exact (ta_valid_addr_ok _ _ Hf)|exact (Hn _ Hx0)].
  - destruct (h_node_update_details_written _ _ _ _ _ _ H) as (n0 & Hg & _ & _ & Hw).
    intros n Hx. destruct (Hw n Hx) as [->|Hx0]; [exact (Hn _ (stored_node_get _ _ _ Hg))|exact (Hn _ Hx0)].
  - destruct (h_node_update_status_effect _ _ _ _ H) as (n0 & Hg & _ & ->).
    intros n Hx. destruct (node_status_state_written _ _ _ _ n Hx) as [->|Hx0]; [exact (Hn _ (stored_node_get _ _ _ Hg))|exact (Hn _ Hx0)].
Qed.

Lemma nao_node_end_block s s' : kinv s -> nodes_addr_ok s -> node_end_block s = Ok s' -> nodes_addr_ok s'.
Proof. intros Hi Hn H. exact (node_end_block_nodes node_addr_ok s s' (ki_node _ Hi) H (fun n Hx => Hx) (fun n Hx => Hx) Hn). Qed.

(* swaps: a validated hash has 32 bytes *)
Lemma swaps_handle s m s' : swap_store_ok s -> validate_basic m = true -> handle s m = Ok s' -> swap_store_ok s'.
Proof.
  intros Hs Hv H. pose proof (handle_frame _ _ _ H) as Hk. destruct m; simpl in H, Hv.
  all: try (unfold swap_store_ok; rewrite (keeps_swap _ _ _ Hk eq_refl); exact Hs).
  destruct (vb_swap _ _ _ _ Hv) as (_ & _ & Hlen & _).
  destruct (h_swap_swaps _ _ _ _ _ _ H) as (q & _ & _ & _ & E). unfold swap_store_ok. rewrite E.
  intros h w Hl. apply lookup_insert_Some in Hl as [[<- <-]|[_ Hl]]; [simpl; split; [reflexivity|lia]|exact (Hs _ _ Hl)].
Qed.

(* entries stay under the key of their timestamp: the schedule only loses entries *)
Lemma infl_store_mint_loop l s s' : mint_loop l s = Ok s' -> infl_store_ok s -> infl_store_ok s'.
Proof. intros H F t i Hl. exact (F _ _ (lookup_weaken _ _ _ _ Hl (mint_loop_inflations _ _ _ H))). Qed.

(** * the invariant over one operation *)

Theorem store_inv_step s o s' : kinv s -> store_inv s -> step s o = OOk s' -> store_inv s'.
Proof.
  intros Hi [A B C D] Hstep. pose proof (plan_step _ _ _ Hi Hstep) as Hpl.
  assert (G : nodes_addr_ok s' /\ swap_store_ok s' /\ infl_store_ok s').
  { apply step_inv in Hstep. destruct o.
    - pose proof (begin_block_keeps _ _ Hstep) as Hk. split; [exact (nao_keeps _ _ _ Hk eq_refl A)|]. split.
      + unfold swap_store_ok. rewrite (keeps_swap _ _ _ Hk eq_refl). exact C.
      + apply begin_block_effect in Hstep as (s1 & Hm & H).
        unfold infl_store_ok. rewrite (keeps_inflations _ _ _ (sub_begin_block_keeps _ _ H) eq_refl). exact (infl_store_mint_loop _ _ _ Hm D).
    - destruct Hstep as [Hv H].
      split; [exact (nao_handle (clear_events s) _ _ A Hv H)|]. split; [exact (swaps_handle (clear_events s) _ _ C Hv H)|].
      unfold infl_store_ok. rewrite (keeps_inflations _ _ _ (handle_keeps _ _ _ H) eq_refl). exact D.
    - destruct Hstep as [_ ->].
      apply (fold_left_inv (fun y => nodes_addr_ok y /\ swap_store_ok y /\ infl_store_ok y)); [|split; [exact A|split; [exact C|exact D]]].
      intros y c (Y1 & Y2 & Y3). pose proof (apply_pchange_keeps y c) as Hk. split; [exact (nao_keeps _ _ _ Hk eq_refl Y1)|].
      unfold swap_store_ok, infl_store_ok. rewrite (keeps_swap _ _ _ Hk eq_refl), (keeps_inflations _ _ _ Hk eq_refl). split; assumption.
    - destruct Hstep as (x & H & ->).
      pose proof (end_block_keeps _ _ H) as Hk. unfold swap_store_ok, infl_store_ok. simpl.
      rewrite (keeps_swap _ _ _ Hk eq_refl), (keeps_inflations _ _ _ Hk eq_refl). split; [|split; [exact C|exact D]].
      apply end_block_effect in H as (s1 & s2 & H1 & H2 & H3).
      intros n Hx. apply (nao_node_end_block _ _ (kinv_clear _ Hi) A H1).
      apply (stored_node_keeps _ _ _ _ (session_end_block_keeps _ _ H2) eq_refl), (stored_node_keeps _ _ _ _ (sub_end_block_keeps _ _ H3) eq_refl).
      exact Hx. }
  destruct G as (G1 & G2 & G3). split; [exact G1| |exact G2|exact G3].
  (* the plan counter points at the newest plan *)
  unfold plan_count_top in *. destruct Hpl as [(Ec & _ & F)|(Ec & (p & Hp & _) & _)].
  - rewrite Ec. destruct B as [B|[p Hp]]; [left; exact B|right]. destruct (F _ _ Hp) as (p' & Hp' & _). eauto.
  - right. rewrite Ec. eauto.
Qed.

Lemma store_inv_clear s : store_inv s -> store_inv (clear_events s).
Proof. intros [A B C D]. split; assumption. Qed.

Lemma store_inv_init g : store_inv (init g).
Proof.
  pose proof (init_keeps g) as K. split.
  - intros n Hn. apply (stored_node_keeps _ _ _ _ K eq_refl) in Hn as [[a H]|[a H]]; simpl in H; rewrite lookup_empty in H; discriminate.
  - left. apply (keeps_plan _ _ _ K eq_refl).
  - intros h w. rewrite (keeps_swap _ _ _ K eq_refl). simpl. rewrite lookup_empty. discriminate.
  - intros t i. rewrite init_inflations. intros Hl. apply elem_of_list_to_map_2, elem_of_list_fmap in Hl as (x & Heq & _). injection Heq as -> ->. reflexivity.
Qed.

Theorem store_inv_run ops : forall s i s', kinv s -> store_inv s -> run_from s ops i = RunOk s' -> store_inv s'.
Proof.
  induction ops as [|o ops IH]; simpl; intros s i s' Hi Hs H.
  - injection H as <-. exact Hs.
  - destruct (step s o) as [s1| |] eqn:E; try discriminate.
    + eapply IH; [eapply kinv_step; eauto|eapply store_inv_step; eauto|exact H].
    + eapply IH; [apply kinv_clear; exact Hi|apply store_inv_clear; exact Hs|exact H].
Qed.

(** * the premises of the round-trip theorems, at every reachable state *)

Section reachable.
  Context (g : genesis) (ops : list op) (s : state) (Hrun : run (init g) ops = RunOk s).

  Let Hall : all_idx s := all_idx_reachable g ops s Hrun.
  Let Hst : store_inv s := store_inv_run ops (init g) 0%nat s (kinv_init g) (store_inv_init g) Hrun.

  Lemma reach_part_pv : prov_store_ok s.
  Proof. destruct (ki_pv _ (ai_k _ Hall)) as [A B D]. split; [exact A|split; [exact B|]]. intros k [v Hv]. eapply D; eauto. Qed.
  Lemma reach_part_node : node_store_ok s.
  Proof. destruct (ki_node _ (ai_k _ Hall)) as [A B D]. split; [exact A|split; [exact B|]]. intros k [v Hv]. eapply D; eauto. Qed.
  Lemma reach_part_plan : plan_store_ok s.
  Proof.
    destruct (ki_plan _ (ai_k _ Hall)) as [A B D C]. split; [|split].
    - intros k v Hv. destruct (A _ _ Hv) as (E1 & E2 & _). auto.
    - intros k v Hv. destruct (B _ _ Hv) as (E1 & E2 & _). auto.
    - intros k [v Hv]. eapply D; eauto.
  Qed.

  Lemma reach_node_plan : node_plan_index_ok s.
  Proof.
    intros id a Hin. destruct (ix_nodeplan _ (ai_plan _ Hall) _ _ Hin) as [Hp [n Hn]].
    destruct (get_node_kinv _ _ _ (ki_node _ (ai_k _ Hall)) Hn) as [Ea _].
    split; [|split; [exact Hp|eauto]]. pose proof (si_nodes _ Hst _ (stored_node_get _ _ _ Hn)) as Hok. unfold node_addr_ok in Hok. rewrite Ea in Hok. exact Hok.
  Qed.

  Theorem reachable_genesis_defined : genesis_defined s.
  Proof. split; [apply reach_part_pv|split; [apply reach_part_node|split; [apply reach_part_plan|apply reach_node_plan]]]. Qed.

  Lemma reach_node_q : node_q_index_ok s.
  Proof. intros t a. rewrite (ai_node _ Hall t a). apply act_iat_spec. Qed.
  Lemma reach_plan_prov : plan_prov_index_ok s.
  Proof. intros a id. apply (ix_planprov _ (ai_plan _ Hall)). Qed.
  Lemma reach_plan_count : plan_count_ok s.
  Proof.
    destruct (ki_plan _ (ai_k _ Hall)) as [A B D C]. split; [|split; [exact C|exact (si_count _ Hst)]].
    intros id p Hp. apply get_plan_cases in Hp as [Hp|[_ Hp]]; [destruct (A _ _ Hp) as (_ & _ & ?)|destruct (B _ _ Hp) as (_ & _ & ?)]; lia.
  Qed.
  Lemma reach_sess_store : sess_store_ok s.
  Proof. intros id x Hx. destruct (k_ss _ (ki_sess _ (ai_k _ Hall)) _ _ Hx) as (E & _). exact E. Qed.
  Lemma reach_sess_index : sess_index_ok s.
  Proof. destruct (ai_sess _ Hall) as [A B C D E]. split; [exact A|split; [exact B|split; [exact C|split; [exact D|exact E]]]]. Qed.

  (* For EVERY reachable state the export/import round trip is defined and gives back, module by module, exactly the
     records and rebuilt indices of providers, nodes (with the lease queue), plans (with provider index, node links,
     counter), deposits, sessions (with all five indices), swaps, the inflation schedule with the SDK mint parameters,
     and all parameter sets; only the subscription module's state is lost (known finding F5) and the session counter
     comes back as the largest live id (F8). *)
  Theorem reachable_roundtrip :
    exists v s', roundtrip s = Ok (v, s') /\
      deposits s' = deposits s /\
      prov_act s' = prov_act s /\ prov_inact s' = prov_inact s /\
      node_act s' = node_act s /\ node_inact s' = node_inact s /\ node_q s' = node_q s /\
      plan_act s' = plan_act s /\ plan_inact s' = plan_inact s /\ plan_prov s' = plan_prov s /\
      node_plan s' = node_plan s /\ plan_count s' = plan_count s /\
      sessions s' = sessions s /\ sess_q s' = sess_q s /\ sess_acc s' = sess_acc s /\ sess_node s' = sess_node s /\
      sess_sub s' = sess_sub s /\ sess_alloc s' = sess_alloc s /\
      swaps s' = swaps s /\ inflations s' = inflations s /\
      mint_max s' = mint_max s /\ mint_min s' = mint_min s /\ mint_rate s' = mint_rate s /\ mint_inflation s' = mint_inflation s /\
      pars s' = pars s /\
      subs s' = ∅ /\ allocs s' = ∅ /\ payouts s' = ∅ /\ sub_count s' = 0.
  Proof.
    pose proof reachable_genesis_defined as Hd. pose proof Hd as (Hp & Hn & Hl & Hnp).
    exists (validate (doc_of s)), (imported (doc_of s) (fresh_like s)). split; [exact (roundtrip_closed s Hd)|].
    pose proof (rt_deposit s) as D1. destruct (rt_provider s Hp) as (P1 & P2). destruct (rt_node s Hn reach_node_q) as (N1 & N2 & N3).
    destruct (rt_plan s Hl Hnp reach_plan_prov reach_plan_count) as (L1 & L2 & L3 & L4 & L5).
    destruct (rt_session s reach_sess_store reach_sess_index) as (S1 & S2 & S3 & S4 & S5 & S6 & _).
    pose proof (rt_swap s (si_swaps _ Hst)) as W1. destruct (rt_mint s (si_infl _ Hst)) as (M1 & M2 & M3 & M4 & M5).
    pose proof (rt_params s) as Q1. destruct (rt_subscription_lost s) as (X1 & X2 & X3 & X4 & _).
    repeat split; assumption.
  Qed.
End reachable.
