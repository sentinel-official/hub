(* C03 / C04 / C09: every session belongs to a live subscription (and, unless that is hourly, to
   an allocation of it), an active session has an active subscription, and a pending session
   never outlives its subscription ([link_inv] of InvDefs.v) — preserved by every operation of
   a history with increasing block times and parameter changes inside DESIGN §5.3. *)
From Hub Require Import Base.Prelude Base.Arith Model.Types Model.Keeper Model.Handlers Model.Hooks Model.Step.
From Hub Require Import Proofs.Tactics Proofs.Effects Proofs.Sorting Proofs.Frames Proofs.KeysInv Proofs.Lifecycle Proofs.IndexSess Proofs.IndexNode
  Proofs.InvDefs Proofs.IndexSub Proofs.Listing Proofs.IndexSub2 Proofs.IndexAll.

Lemma elem_of_rev' {A} (l : list A) x : x ∈ rev l <-> x ∈ l.
Proof. rewrite !elem_of_list_In. symmetry. apply in_rev. Qed.
Lemma NoDup_rev' {A} (l : list A) : NoDup l -> NoDup (rev l).
Proof. rewrite !NoDup_ListNoDup. apply List.NoDup_rev. Qed.

(** * what SubscriptionInactivePendingHook does to the sessions *)

Definition demote_sess (id : Z) (t now0 : time) (x : session) : session :=
  if bool_decide (ss_sub x = id /\ ss_status x = SActive)
  then x <| ss_inactive_at := t |> <| ss_status := SPending |> <| ss_status_at := now0 |> else x.

Lemma sub_pending_hook_sessions s id s' :
  kinv_sess s -> idx_sess s -> sub_pending_hook s id = Ok s' ->
  forall sid, sessions s' !! sid = demote_sess id (now s + p_sess_delay (pars s)) (now s) <$> sessions s !! sid.
Proof.
  intros Hk Hix H. unfold sub_pending_hook in H.
  set (l := rev (ids_for_z (sess_sub s) id)) in *.
  set (dm := demote_sess id (now s + p_sess_delay (pars s)) (now s)).
  set (P := fun (rest : list Z) (x : state) =>
              now x = now s /\ pars x = pars s /\ NoDup rest /\ (forall sid, sid ∈ rest -> sid ∈ l) /\
              forall sid, sessions x !! sid = if bool_decide (sid ∈ rest) then sessions s !! sid else dm <$> sessions s !! sid).
  assert (Hl : forall sid, sid ∈ l <-> exists x, sessions s !! sid = Some x /\ ss_sub x = id).
  { intros sid. unfold l. rewrite elem_of_rev', elem_of_ids_for_z. apply (ix_ssub _ Hix). }
  assert (G : P [] s').
  { eapply (rfold_rest P); [| |exact H].
    - intros sid rest x x' (N1 & N2 & Hnd & Hsubl & Hs) Hstep. cbv beta in Hstep.
      pose proof (Hs sid) as Hsid. rewrite bool_decide_eq_true_2 in Hsid by left.
      destruct (sessions x !! sid) as [y|] eqn:Hy; [|discriminate].
      symmetry in Hsid. destruct (k_ss _ Hk _ _ Hsid) as (E1 & _).
      apply NoDup_cons in Hnd as [Hnotin Hnd].
      assert (Hsub : ss_sub y = id).
      { destruct (proj1 (Hl sid) (Hsubl sid ltac:(left))) as (y0 & Hy0 & E0). congruence. }
      assert (Hsubl' : forall sid0, sid0 ∈ rest -> sid0 ∈ l) by (intros sid0 Hin; apply Hsubl; right; exact Hin).
      case_bool_decide as Hact; injection Hstep as <-.
      + split; [exact N1|]. split; [exact N2|]. split; [exact Hnd|]. split; [exact Hsubl'|]. intros sid'. unfold session_make_pending. simpl.
        destruct (decide (sid' = sid)) as [->|Hne].
        * rewrite E1, lookup_insert. rewrite bool_decide_eq_false_2 by exact Hnotin. rewrite Hsid. simpl. f_equal.
          unfold dm, demote_sess. rewrite N1, N2. rewrite bool_decide_eq_true_2 by (split; assumption). reflexivity.
        * rewrite E1, lookup_insert_ne by congruence. rewrite Hs. repeat case_bool_decide; try reflexivity; set_solver.
      + split; [exact N1|]. split; [exact N2|]. split; [exact Hnd|]. split; [exact Hsubl'|]. intros sid'.
        destruct (decide (sid' = sid)) as [->|Hne].
        * rewrite Hy, Hsid. rewrite bool_decide_eq_false_2 by exact Hnotin. simpl. f_equal. unfold dm, demote_sess.
          rewrite bool_decide_eq_false_2; [reflexivity|]. intros [_ ?]. contradiction.
        * rewrite Hs. repeat case_bool_decide; try reflexivity; set_solver.
    - split; [reflexivity|]. split; [reflexivity|]. split; [unfold l; apply NoDup_rev', NoDup_ids_for_z|]. split; [auto|].
      intros sid. case_bool_decide as Hin; [reflexivity|].
      destruct (sessions s !! sid) as [x|] eqn:Hx; [|reflexivity]. simpl. f_equal. unfold dm, demote_sess.
      rewrite bool_decide_eq_false_2; [reflexivity|]. intros [Hs _]. apply Hin. apply Hl. eauto. }
  destruct G as (_ & _ & _ & _ & G). intros sid. rewrite G. rewrite bool_decide_eq_false_2 by (intros Hin; inversion Hin). reflexivity.
Qed.

(** * frames *)

Lemma link_mono' s s' :
  (forall sid x, sessions s' !! sid = Some x -> sessions s !! sid = Some x) ->
  (forall sid x, sessions s' !! sid = Some x -> forall sb, subs s !! ss_sub x = Some sb -> subs s' !! ss_sub x = Some sb) ->
  (forall sid x, sessions s' !! sid = Some x -> is_Some (allocs s !! (ss_sub x, ss_addr x)) -> is_Some (allocs s' !! (ss_sub x, ss_addr x))) ->
  now s + p_sub_delay (pars s) <= now s' + p_sub_delay (pars s') -> link_inv s -> link_inv s'.
Proof.
  intros E1 Hsub Hal Ht [L]. split. intros sid x Hx. pose proof (E1 _ _ Hx) as Hx0.
  destruct (L _ _ Hx0) as (sb & Hsb & Hha & L1 & L2 & L3). exists sb. split; [eapply Hsub; eauto|].
  split; [destruct Hha as [Hh|Ha]; [left; exact Hh|right; eapply Hal; eauto]|]. split; [exact L1|]. split; [exact L2|].
  intros P1 P2. specialize (L3 P1 P2). lia.
Qed.

Lemma link_mono s s' :
  sessions s' = sessions s -> (forall id sb, subs s !! id = Some sb -> subs s' !! id = Some sb) ->
  (forall k, is_Some (allocs s !! k) -> is_Some (allocs s' !! k)) ->
  now s + p_sub_delay (pars s) <= now s' + p_sub_delay (pars s') -> link_inv s -> link_inv s'.
Proof.
  intros E1 Hsub Hal. apply link_mono'; [rewrite E1; auto|intros sid x _; apply Hsub|intros sid x _; apply Hal].
Qed.

Lemma link_keeps T s s' :
  keeps T s s' -> touched GSub T = false -> touched GSess T = false -> touched GPar T = false -> touched GNow T = false ->
  link_inv s -> link_inv s'.
Proof.
  intros K T1 T2 T3 T4. destruct (keeps_sub _ _ _ K T1) as (_ & E1 & _ & _ & _ & _ & E2 & _). destruct (keeps_sess _ _ _ K T2) as (_ & E3 & _).
  destruct (keeps_par _ _ _ K T3) as (E4 & _). pose proof (keeps_now _ _ _ K T4) as K4.
  apply link_mono; [exact E3|rewrite E1; auto|rewrite E2; auto|rewrite E4, K4; lia].
Qed.

(** * demotion of a subscription (MsgCancel, expiry of an active subscription) *)

Lemma link_demote s s' id sb :
  kinv s -> par_ok (pars s) -> link_inv s -> subs s !! id = Some sb -> sb_status sb = SActive ->
  (forall sid, sessions s' !! sid = demote_sess id (now s + p_sess_delay (pars s)) (now s) <$> sessions s !! sid) ->
  subs s' = <[id := sb <| sb_inactive_at := now s + p_sub_delay (pars s) |> <| sb_status := SPending |> <| sb_status_at := now s |>]> (subs s) ->
  (forall k, is_Some (allocs s !! k) -> is_Some (allocs s' !! k)) -> now s' = now s -> pars s' = pars s ->
  link_inv s'.
Proof.
  intros Hi Hp [L] Hsb Hact Hsess Hsubs Hal En Ep. split. intros sid x' Hx'. rewrite Hsess in Hx'.
  destruct (sessions s !! sid) as [x|] eqn:Hx; [|discriminate]. simpl in Hx'. injection Hx' as <-.
  destruct (L _ _ Hx) as (sb0 & Hsb0 & Hha & L1 & L2 & L3).
  assert (Esub : ss_sub (demote_sess id (now s + p_sess_delay (pars s)) (now s) x) = ss_sub x /\
                 ss_addr (demote_sess id (now s + p_sess_delay (pars s)) (now s) x) = ss_addr x).
  { unfold demote_sess. case_bool_decide; simpl; auto. }
  destruct Esub as [Es Ea]. rewrite Es, Ea, Hsubs, En, Ep.
  destruct (k_ss _ (ki_sess _ Hi) _ _ Hx) as (_ & _ & Hlive).
  destruct (decide (ss_sub x = id)) as [Eid|Hne].
  - rewrite Eid in *. rewrite lookup_insert. rewrite Hsb in Hsb0. injection Hsb0 as <-. eexists. split; [reflexivity|].
    split; [destruct Hha as [Hh|Ha]; [left; exact Hh|right; apply Hal; exact Ha]|]. simpl.
    unfold demote_sess. case_bool_decide as Hc; simpl.
    + split; [discriminate|]. split; [intros _ _; destruct Hp; lia|intros _; discriminate].
    + assert (Hpend : ss_status x = SPending) by (destruct Hlive as [Ha|Hpd]; [exfalso; apply Hc; auto|exact Hpd]).
      split; [congruence|]. split; [intros _ _; apply L3; assumption|intros _; discriminate].
  - rewrite lookup_insert_ne by congruence. exists sb0. split; [exact Hsb0|].
    assert (Ed : demote_sess id (now s + p_sess_delay (pars s)) (now s) x = x).
    { unfold demote_sess. rewrite bool_decide_eq_false_2; [reflexivity|]. intros [? _]. contradiction. }
    rewrite Ed. split; [destruct Hha as [Hh|Ha]; [left; exact Hh|right; apply Hal; exact Ha]|]. auto.
Qed.

Lemma detach_payout_fields s sb m s' :
  (forall x, m <> Ok x) -> detach_payout s sb m = Ok s' ->
  sessions s' = sessions s /\ subs s' = subs s /\ allocs s' = allocs s /\ now s' = now s /\ pars s' = pars s /\
  sess_q s' = sess_q s /\ sess_acc s' = sess_acc s /\ sess_node s' = sess_node s /\ sess_sub s' = sess_sub s /\ sess_alloc s' = sess_alloc s /\
  sess_count s' = sess_count s.
Proof.
  intros Hm H. assert (K : keeps [GSub] s s') by (eapply detach_payout_keeps; [|exact H]; intros x Hx; destruct (Hm _ Hx)).
  destruct (keeps_sess _ _ _ K eq_refl) as (S1 & S2 & S3 & S4 & S5 & S6 & S7).
  destruct (keeps_par _ _ _ K eq_refl) as (P1 & _). pose proof (keeps_now _ _ _ K eq_refl) as N1.
  apply detach_payout_effect in H. destruct (payout_of s sb) as [[po|]|]; [|destruct (Hm _ H)|]; subst s'; auto 12.
Qed.

(* the common tail of MsgCancel and of the expiry of an active subscription *)
Lemma link_demote_tail s s1 s2 sb m s' :
  kinv s -> idx_sess s -> par_ok (pars s) -> link_inv s ->
  subs s !! sb_id sb = Some sb -> sb_status sb = SActive ->
  keeps [GSub] s s1 -> subs s1 = subs s -> allocs s1 = allocs s ->
  sub_pending_hook s1 (sb_id sb) = Ok s2 -> (forall x, m <> Ok x) ->
  detach_payout (sub_make_pending s2 sb) sb m = Ok s' -> link_inv s'.
Proof.
  intros Hi Hix Hp Hl Hsb Hact Hk1 Es1 Ea1 Hh Hm Hd.
  destruct (keeps_sess _ _ _ Hk1 eq_refl) as (F2 & F1 & F3 & F4 & F5 & F6 & F7).
  destruct (keeps_par _ _ _ Hk1 eq_refl) as (F9 & _). pose proof (keeps_now _ _ _ Hk1 eq_refl) as F8.
  assert (Hk1' : kinv_sess s1) by (eapply kinv_sess_frame; [..|apply (ki_sess _ Hi)]; assumption).
  assert (Hix1 : idx_sess s1) by (eapply idx_sess_frame; [..|exact Hix]; assumption).
  pose proof (sub_pending_hook_sessions _ _ _ Hk1' Hix1 Hh) as Hs2. rewrite F1, F8, F9 in Hs2.
  destruct (sub_demote_fields _ _ _ _ _ _ Hh Hm Hd) as (K2 & K & _ & D2 & D3 & _).
  eapply (link_demote s s' (sb_id sb) sb); try eassumption.
  - intros sid. rewrite (proj1 (proj2 (keeps_sess _ _ _ K eq_refl))). apply Hs2.
  - rewrite D2, Es1. unfold sub_pending. rewrite F8, F9. reflexivity.
  - intros k. rewrite D3, Ea1. auto.
  - rewrite (keeps_now _ _ _ K eq_refl), (keeps_now _ _ _ K2 eq_refl). exact F8.
  - rewrite (proj1 (keeps_par _ _ _ K eq_refl)), (proj1 (keeps_par _ _ _ K2 eq_refl)). exact F9.
Qed.

Lemma link_h_sub_cancel s from id s' :
  kinv s -> idx_sess s -> par_ok (pars s) -> link_inv s -> h_sub_cancel s from id = Ok s' -> link_inv s'.
Proof.
  intros Hi Hix Hp Hl H. destruct (h_sub_cancel_effect _ _ _ _ H) as (sb & s2 & Hsb & Hact & _ & Hh & Hd).
  destruct (k_sub _ (ki_sub _ Hi) _ _ Hsb) as (Eid & _ & _). subst id.
  eapply (link_demote_tail s _ s2 sb Err); try eassumption; [keeps_conv|reflexivity|reflexivity|discriminate].
Qed.

(** * sessions *)

Lemma link_h_sess_start s from id nd s' :
  kinv s -> link_inv s -> h_sess_start s from id nd = Ok s' -> link_inv s'.
Proof.
  intros Hi [L] H. destruct (h_sess_start_effect _ _ _ _ _ H) as (sb & n & latest & Hsb & Hact & _ & _ & _ & _ & _ & Hq & ->).
  assert (Hha : hourly sb = true \/ is_Some (allocs s !! (id, ta_bytes from))).
  { destruct Hq as [Hh|(al & Hal & _)]; [left|right; eauto]. unfold hourly. destruct (sb_kind sb); [|contradiction].
    apply negb_true_iff, Z.eqb_neq. exact Hh. }
  split. cbn [session_start_state sessions subs allocs now pars emit set]. intros sid x Hx. apply lookup_insert_Some in Hx as [[<- <-]|[Hne Hx]].
  - simpl. exists sb. split; [exact Hsb|]. split; [exact Hha|]. split; [auto|]. split; intros; discriminate.
  - apply (L _ _ Hx).
Qed.

Lemma link_h_sess_update s from id u d du ok s' :
  kinv s -> link_inv s -> h_sess_update s from id u d du ok = Ok s' -> link_inv s'.
Proof.
  intros Hi [L] H. destruct (h_sess_update_effect _ _ _ _ _ _ _ _ H) as (x & Hx & _ & _ & _ & ->).
  destruct (L _ _ Hx) as (sb & Hsb & Hha & L1 & L2 & L3).
  split. cbn [session_update_state sessions subs allocs now pars emit set]. intros sid y Hy.
  apply lookup_insert_Some in Hy as [[<- <-]|[Hne Hy]]; [|apply (L _ _ Hy)].
  exists sb. unfold session_reported. case_bool_decide as Hact; simpl; (split; [exact Hsb|]); (split; [exact Hha|]); [|auto].
  split; [auto|]. split; intros; congruence.
Qed.

(* an active session becomes inactive-pending: MsgEnd and the session end-blocker *)
Lemma link_session_pend s s' x :
  par_ok (pars s) -> link_inv s -> sessions s !! ss_id x = Some x -> ss_status x = SActive ->
  sessions s' = <[ss_id x := x <| ss_inactive_at := now s + p_sess_delay (pars s) |> <| ss_status := SPending |> <| ss_status_at := now s |>]> (sessions s) ->
  subs s' = subs s -> allocs s' = allocs s -> now s' = now s -> pars s' = pars s -> link_inv s'.
Proof.
  intros Hp [L] Hx Hact E1 E2 E3 E4 E5. split. rewrite E1, E2, E3, E4, E5. intros sid y Hy.
  apply lookup_insert_Some in Hy as [[<- <-]|[Hne Hy]]; [|apply (L _ _ Hy)]. simpl.
  destruct (L _ _ Hx) as (sb & Hsb & Hha & L1 & L2 & L3). exists sb. split; [exact Hsb|]. split; [exact Hha|].
  split; [discriminate|]. specialize (L1 Hact). split; [intros _ Hpd; congruence|]. intros _ _. destruct Hp. lia.
Qed.

Lemma link_h_sess_end s from id s' :
  kinv s -> par_ok (pars s) -> link_inv s -> h_sess_end s from id = Ok s' -> link_inv s'.
Proof.
  intros Hi Hp Hl H. destruct (h_sess_end_effect _ _ _ _ H) as (x & Hx & Hact & _ & ->).
  destruct (k_ss _ (ki_sess _ Hi) _ _ Hx) as (Eid & _). subst id.
  eapply (link_session_pend s _ x); try eassumption; reflexivity.
Qed.

(** * transactions *)

Lemma link_grow T s s' :
  keeps T s s' -> touched GSess T = false -> touched GPar T = false -> touched GNow T = false ->
  (forall id sb, subs s !! id = Some sb -> subs s' !! id = Some sb) ->
  (forall k, is_Some (allocs s !! k) -> is_Some (allocs s' !! k)) -> link_inv s -> link_inv s'.
Proof.
  intros K T1 T2 T3 Hs Ha. apply link_mono; [exact (proj1 (proj2 (keeps_sess _ _ _ K T1)))|exact Hs|exact Ha|].
  rewrite (keeps_now _ _ _ K T3), (proj1 (keeps_par _ _ _ K T2)). lia.
Qed.

Lemma link_handle s m s' :
  kinv s -> idx_sess s -> idx_sub s -> par_ok (pars s) -> link_inv s -> validate_basic m = true -> handle s m = Ok s' -> link_inv s'.
Proof.
  intros Hi Hix Hixs Hp Hl Hv H. pose proof (handle_frame _ _ _ H) as K.
  destruct (touched GSub (msg_groups m) || touched GSess (msg_groups m)) eqn:Ht.
  2:{ apply orb_false_iff in Ht as [T1 T2]. eapply link_keeps; [exact K|exact T1|exact T2|destruct m; reflexivity..|exact Hl]. }
  destruct m; try discriminate Ht; simpl in H.
  - (* node subscribe: a fresh subscription, perhaps with its allocation *)
    destruct (h_node_subscribe_effect _ _ _ _ _ _ _ H) as (s1 & id & _ & _ & Hc & ->).
    destruct (create_sub_for_node_subs _ _ _ _ _ _ _ _ Hc) as (inact & dep & Eid & _ & Es & Ea & _).
    apply (link_grow _ _ _ K); [reflexivity..| | |exact Hl]; simpl.
    + intros id0 sb Hsb. rewrite Es, lookup_insert_ne; [exact Hsb|]. intros <-. rewrite (fresh_sub _ (ki_sub _ Hi)) in Hsb; [discriminate|lia].
    + intros k Hk0. rewrite Ea. destruct (gigabytes =? 0); [exact Hk0|].
      destruct (decide (k = (id, ta_bytes from))) as [->|Hne]; [rewrite lookup_insert; eauto|rewrite lookup_insert_ne by congruence; exact Hk0].
  - (* plan subscribe *)
    destruct (h_plan_subscribe_effect _ _ _ _ _ H) as (s1 & sid & Hc & ->).
    destruct (create_sub_for_plan_subs _ _ _ _ _ _ Hc) as (p & _ & Eid & _ & Es & Ea & _).
    apply (link_grow _ _ _ K); [reflexivity..| | |exact Hl]; simpl.
    + intros id0 sb Hsb. rewrite Es, lookup_insert_ne; [exact Hsb|]. intros <-. rewrite (fresh_sub _ (ki_sub _ Hi)) in Hsb; [discriminate|lia].
    + intros k Hk0. rewrite Ea.
      destruct (decide (k = (sid, ta_bytes from))) as [->|Hne]; [rewrite lookup_insert; eauto|rewrite lookup_insert_ne by congruence; exact Hk0].
  - eapply link_h_sub_cancel; eauto.
  - (* allocate: allocations only gain keys *)
    destruct (h_sub_allocate_effect _ _ _ _ _ _ H) as (sb & fal & E). cbv zeta in E. destruct E as (_ & _ & _ & _ & _ & _ & _ & _ & _ & Es).
    apply (link_grow _ _ _ K); [reflexivity..| | |exact Hl]; rewrite Es.
    + intros id0 sb0 Hs. exact Hs.
    + intros k Hk0. cbn [share_state allocs emit set].
      destruct (decide (k = (id, ta_bytes to))) as [->|N1]; [rewrite lookup_insert; eauto|rewrite lookup_insert_ne by congruence].
      destruct (decide (k = (id, ta_bytes from))) as [->|N2]; [rewrite lookup_insert; eauto|rewrite lookup_insert_ne by congruence]. exact Hk0.
  - eapply link_h_sess_start; eauto.
  - eapply link_h_sess_update; eauto.
  - eapply link_h_sess_end; eauto.
Qed.

(** * block hooks *)

Lemma link_payout_step s e s' : link_inv s -> payout_step s e = Ok s' -> link_inv s'.
Proof.
  intros Hl H. destruct (payout_step_subs _ _ _ H) as (po & _ & _ & Es & Ea & _).
  apply (link_grow _ _ _ (payout_step_keeps _ _ _ H)); [reflexivity..|rewrite Es; auto|rewrite Ea; auto|exact Hl].
Qed.

Lemma link_begin_block s t s' : now s < t -> link_inv s -> begin_block (clear_events s <| now := t |>) = Ok s' -> link_inv s'.
Proof.
  intros Ht Hl H. apply begin_block_effect in H as (s1 & Hm & H). apply mint_begin_block_keeps in Hm.
  assert (Hl1 : link_inv s1).
  { destruct (keeps_sub _ _ _ Hm eq_refl) as (_ & Es & _ & _ & _ & _ & Ea & _).
    apply (link_mono s); [exact (proj1 (proj2 (keeps_sess _ _ _ Hm eq_refl)))|rewrite Es; auto|rewrite Ea; auto| |exact Hl].
    rewrite (keeps_now _ _ _ Hm eq_refl), (proj1 (keeps_par _ _ _ Hm eq_refl)). simpl. lia. }
  unfold sub_begin_block in H. eapply (rfold_inv link_inv); [|exact Hl1|exact H]. intros; eapply link_payout_step; eauto.
Qed.

Lemma link_session_expire_one s e s' :
  kinv s -> par_ok (pars s) -> link_inv s -> session_expire_one s e = Ok s' -> link_inv s'.
Proof.
  intros Hi Hp Hl H. destruct (session_expire_one_effect _ _ _ H) as (x & Hx & [(Hact & ->)|(_ & _ & s1 & Hh & ->)]);
    destruct (k_ss _ (ki_sess _ Hi) _ _ Hx) as (Eid & _); rewrite <- Eid in Hx.
  - eapply (link_session_pend s _ x); try eassumption; reflexivity.
  - destruct (session_inactive_hook_subs _ _ _ _ _ _ Hh) as (x0 & sb0 & _ & _ & _ & E1 & _ & Ha).
    pose proof (session_inactive_hook_keeps _ _ _ _ _ _ Hh) as Hk.
    apply (link_mono' s); [| | | |exact Hl]; simpl.
    + intros sid y Hy. apply lookup_delete_Some in Hy as [_ Hy]. destruct (keeps_sess _ _ _ Hk eq_refl) as (_ & Es & _). rewrite Es in Hy. exact Hy.
    + intros sid y _ sb Hsb. rewrite E1. exact Hsb.
    + intros sid y _ Hal. destruct Ha as [->|(al & _ & ->)]; [exact Hal|].
      destruct (decide ((ss_sub y, ss_addr y) = (al_id al, al_addr al))) as [->|Hne]; [rewrite lookup_insert; eauto|rewrite lookup_insert_ne by congruence; exact Hal].
    + rewrite (keeps_now _ _ _ Hk eq_refl), (proj1 (keeps_par _ _ _ Hk eq_refl)). simpl. lia.
Qed.

Lemma link_sub_expire_one s e s' :
  kinv s -> idx_sess s -> idx_sub s -> par_ok (pars s) -> link_inv s -> sess_fresh s -> e ∈ sub_q s -> e.1 <= now s ->
  sub_expire_one s e = Ok s' -> link_inv s'.
Proof.
  intros Hi Hix Hixs Hp Hl Hfresh He Hdue H0.
  destruct (sub_expire_one_effect _ _ _ H0) as (sb & Hsb & [(Hact & s2 & Hh & H)|(Hact & s1 & Hr & H)]);
    destruct (k_sub _ (ki_sub _ Hi) _ _ Hsb) as (Eid & _ & Hlive).
  - rewrite <- Eid in Hsb.
    eapply (link_demote_tail s _ s2 sb Panic); try eassumption; [unfold sub_unqueue; keeps_conv|reflexivity|reflexivity|discriminate].
  - (* removal: no session refers to the subscription any more *)
    destruct e as [t id]. simpl in *.
    destruct (proj1 (ix_subq _ Hixs t id) He) as (sb1 & Hsb1 & Hiat). rewrite Hsb in Hsb1. injection Hsb1 as <-.
    assert (Hpend : sb_status sb = SPending) by (destruct Hlive; [contradiction|assumption]).
    assert (Hnone : forall sid x, sessions s !! sid = Some x -> ss_sub x <> id).
    { intros sid x Hx Hs. destruct Hl as [L]. destruct (L _ _ Hx) as (sb1 & Hsb1 & _ & L1 & L2 & _). rewrite Hs, Hsb in Hsb1. injection Hsb1 as <-.
      destruct (k_ss _ (ki_sess _ Hi) _ _ Hx) as (_ & _ & [Ha|Hpd]); [specialize (L1 Ha); congruence|].
      specialize (L2 Hpd Hpend). specialize (Hfresh _ _ Hx). lia. }
    destruct (sub_remove_spec s (t, id) s' sb (ki_sub _ Hi) Hixs Hsb Hact H0) as (R1 & _ & RA & _). simpl in R1, RA.
    pose proof (sub_expire_one_keeps _ _ _ H0) as Hk.
    destruct (keeps_sess _ _ _ (sub_remove_keeps _ _ _ _ Hr H) eq_refl) as (_ & Es & _). simpl in Es.
    apply (link_mono' s); [| | | |exact Hl].
    + intros sid y Hy. rewrite Es in Hy. exact Hy.
    + intros sid y Hy sb0 Hsb0. rewrite Es in Hy. rewrite R1.
      rewrite lookup_delete_ne; [exact Hsb0|]. intros E. exact (Hnone _ _ Hy (eq_sym E)).
    + intros sid y Hy Hal. rewrite Es in Hy. rewrite RA. simpl. rewrite bool_decide_eq_false_2; [exact Hal|]. exact (Hnone _ _ Hy).
    + rewrite (keeps_now _ _ _ Hk eq_refl), (proj1 (keeps_par _ _ _ Hk eq_refl)). lia.
Qed.

(** * the end-blocker: every due record is demoted or removed; afterwards every deadline is in the future *)

Definition sub_fresh (s : state) : Prop := forall id sb, subs s !! id = Some sb -> now s < sb_inactive_at sb.
Definition node_fresh (s : state) : Prop := forall a n, node_act s !! a = Some n -> now s < nd_inactive_at n.

Lemma session_expire_one_sessions s e s' x :
  sessions s !! e.2 = Some x -> ss_id x = e.2 -> session_expire_one s e = Ok s' ->
  now s' = now s /\ pars s' = pars s /\
  sessions s' = if bool_decide (ss_status x = SActive)
                then <[e.2 := x <| ss_inactive_at := now s + p_sess_delay (pars s) |> <| ss_status := SPending |> <| ss_status_at := now s |>]> (sessions s)
                else delete e.2 (sessions s).
Proof.
  intros Hx Eid H. pose proof (session_expire_one_keeps _ _ _ H) as Hk.
  split; [exact (keeps_now _ _ _ Hk eq_refl)|]. split; [exact (proj1 (keeps_par _ _ _ Hk eq_refl))|].
  destruct (session_expire_one_effect _ _ _ H) as (x0 & Hx0 & E). rewrite Hx in Hx0. injection Hx0 as <-.
  destruct E as [(Hact & ->)|(Hact & _ & s1 & Hh & ->)]; [rewrite bool_decide_eq_true_2 by exact Hact|rewrite bool_decide_eq_false_2 by exact Hact].
  - simpl. rewrite Eid. reflexivity.
  - simpl. rewrite Eid. f_equal. exact (proj1 (proj2 (keeps_sess _ _ _ (session_inactive_hook_keeps _ _ _ _ _ _ Hh) eq_refl))).
Qed.

Record end_inv (s : state) : Prop := {
  ei_k : kinv s; ei_sess : idx_sess s; ei_sub : idx_sub s; ei_par : par_ok (pars s); ei_link : link_inv s }.

Lemma end_inv_node_end_block s s1 : end_inv s -> node_end_block s = Ok s1 -> end_inv s1.
Proof.
  intros [A B C D E] H1. pose proof (node_end_block_keeps _ _ H1) as K1. split.
  - eapply kinv_node_end_block; eauto.
  - eapply idx_sess_keeps; eauto.
  - eapply idx_sub_keeps; eauto.
  - rewrite (proj1 (keeps_par _ _ _ K1 eq_refl)). exact D.
  - eapply link_keeps; eauto.
Qed.

Lemma end_inv_session_expire_one s e s' : end_inv s -> session_expire_one s e = Ok s' -> end_inv s'.
Proof.
  intros [A B C D E] H. pose proof (session_expire_one_keeps _ _ _ H) as Hk. split.
  - eapply kinv_session_expire_one; eauto.
  - eapply idx_session_expire_one; eauto. apply A.
  - eapply idx_sub_session_expire_one; eauto.
  - rewrite (proj1 (keeps_par _ _ _ Hk eq_refl)). exact D.
  - eapply link_session_expire_one; eauto.
Qed.

Lemma session_end_block_loop (Q : list (time * Z) -> state -> Prop) s s' :
  end_inv s -> session_end_block s = Ok s' ->
  Q (due_z (sess_q s) (now s)) s ->
  (forall id rest x x' y,
     end_inv x -> now x = now s -> pars x = pars s ->
     sessions x !! id = Some y -> ss_inactive_at y <= now s -> (forall t', (t', id) ∉ rest) ->
     now x' = now x ->
     sessions x' = (if bool_decide (ss_status y = SActive)
                    then <[id := y <| ss_inactive_at := now x + p_sess_delay (pars x) |> <| ss_status := SPending |> <| ss_status_at := now x |>]> (sessions x)
                    else delete id (sessions x)) ->
     Q ((ss_inactive_at y, id) :: rest) x -> Q rest x') ->
  end_inv s' /\ now s' = now s /\ pars s' = pars s /\ Q [] s'.
Proof.
  intros Hinv H HQ0 HQ. unfold session_end_block in H.
  set (P := fun (rest : list (time * Z)) (x : state) =>
              end_inv x /\ now x = now s /\ pars x = pars s /\ NoDup rest /\
              (forall e, e ∈ rest -> e ∈ sess_q x /\ e.1 <= now s) /\ Q rest x).
  assert (G : P [] s').
  { eapply (rfold_rest P); [| |exact H].
    - intros e rest x x' (Hx & N1 & N2 & Hnd & Hin & Hq) Hstep.
      apply NoDup_cons in Hnd as [Hnotin Hnd].
      destruct e as [t id]. destruct (Hin (t, id) ltac:(left)) as [He Hle]. simpl in Hle.
      destruct (proj1 (ix_sq _ (ei_sess _ Hx) t id) He) as (y & Hy & Hiat).
      destruct (k_ss _ (ki_sess _ (ei_k _ Hx)) _ _ Hy) as (Eid & _).
      destruct (session_expire_one_sessions x (t, id) x' y Hy Eid Hstep) as (M1 & M2 & M3). simpl in M3.
      pose proof (end_inv_session_expire_one _ _ _ Hx Hstep) as Hx'.
      split; [exact Hx'|]. split; [congruence|]. split; [congruence|]. split; [exact Hnd|]. split.
      + intros [t' id'] He'. destruct (Hin (t', id') ltac:(right; exact He')) as [He'q Hle']. split; [|exact Hle'].
        apply (ix_sq _ (ei_sess _ Hx')). destruct (proj1 (ix_sq _ (ei_sess _ Hx) t' id') He'q) as (y' & Hy' & Hiat').
        assert (Hne : id' <> id). { intros ->. rewrite Hy in Hy'. injection Hy' as <-. apply Hnotin. rewrite <- Hiat, Hiat'. exact He'. }
        exists y'. split; [|exact Hiat']. rewrite M3. case_bool_decide; [rewrite lookup_insert_ne by congruence|rewrite lookup_delete_ne by congruence]; exact Hy'.
      + subst t. apply (HQ id rest x x' y Hx N1 N2 Hy Hle); [|exact M1|exact M3|exact Hq].
        intros t' Hin'. destruct (Hin (t', id) ltac:(right; exact Hin')) as [Hq' _].
        destruct (proj1 (ix_sq _ (ei_sess _ Hx) t' id) Hq') as (y' & Hy' & Hiat'). rewrite Hy in Hy'. injection Hy' as <-.
        apply Hnotin. rewrite Hiat'. exact Hin'.
    - split; [exact Hinv|]. split; [reflexivity|]. split; [reflexivity|]. split; [apply NoDup_due_z|]. split; [|exact HQ0].
      intros e He. apply elem_of_due_z in He. tauto. }
  destruct G as (G1 & G2 & G3 & _ & _ & G4). auto.
Qed.

Lemma session_end_block_fresh s s' :
  end_inv s -> session_end_block s = Ok s' -> end_inv s' /\ sess_fresh s' /\ now s' = now s /\ pars s' = pars s.
Proof.
  intros Hinv H.
  destruct (session_end_block_loop
              (fun rest x => forall sid y, sessions x !! sid = Some y -> ss_inactive_at y <= now x -> (ss_inactive_at y, sid) ∈ rest)
              s s' Hinv H) as (G1 & G2 & G3 & G4).
  - intros sid y Hy Hle. apply elem_of_due_z. split; [|exact Hle]. apply (ix_sq _ (ei_sess _ Hinv)). eauto.
  - intros id rest x x' y Hx N1 N2 Hy Hle Hnone M1 M3 Hdue sid y' Hy' Hle'. rewrite M3 in Hy'. rewrite M1 in Hle'.
    destruct (decide (sid = id)) as [->|Hne].
    + case_bool_decide; [rewrite lookup_insert in Hy'; injection Hy' as <-; simpl in Hle'; destruct (ei_par _ Hx); lia|rewrite lookup_delete in Hy'; discriminate].
    + assert (Hy0 : sessions x !! sid = Some y') by (revert Hy'; case_bool_decide; [rewrite lookup_insert_ne by congruence|rewrite lookup_delete_ne by congruence]; auto).
      specialize (Hdue _ _ Hy0 Hle'). apply elem_of_cons in Hdue as [E|Hr]; [congruence|exact Hr].
  - split; [exact G1|]. split; [|split; assumption].
    intros sid y Hy. destruct (Z_lt_le_dec (now s') (ss_inactive_at y)) as [Hlt|Hle]; [exact Hlt|].
    specialize (G4 _ _ Hy Hle). inversion G4.
Qed.

Lemma idx_sess_sub_expire_one s e s' : kinv s -> idx_sess s -> sub_expire_one s e = Ok s' -> idx_sess s'.
Proof.
  intros Ha Hb Hstep. destruct (sub_expire_one_effect _ _ _ Hstep) as (sb & _ & [(_ & a1 & Hp & Hd)|(_ & a1 & Hr & Hd)]).
  - destruct (sub_demote_fields _ _ _ _ Panic _ Hp ltac:(intros ?; discriminate) Hd) as (_ & K & _).
    apply (idx_sess_keeps _ _ _ K eq_refl).
    eapply idx_sub_pending_hook; [| |exact Hp]; [eapply kinv_sess_frame; [..|apply (ki_sess _ Ha)]; reflexivity|].
    eapply (idx_sess_frame s); eauto.
  - apply (idx_sess_keeps _ _ _ (sub_remove_keeps _ _ _ _ Hr Hd) eq_refl). eapply (idx_sess_frame s); eauto.
Qed.

Lemma sub_expire_one_fields s e s' sb :
  kinv s -> idx_sess s -> subs s !! e.2 = Some sb -> sb_id sb = e.2 -> sub_expire_one s e = Ok s' ->
  now s' = now s /\ pars s' = pars s /\
  (subs s' = if bool_decide (sb_status sb = SActive)
             then <[e.2 := sb <| sb_inactive_at := now s + p_sub_delay (pars s) |> <| sb_status := SPending |> <| sb_status_at := now s |>]> (subs s)
             else delete e.2 (subs s)) /\
  (forall sid, sessions s' !! sid = if bool_decide (sb_status sb = SActive)
                                    then demote_sess e.2 (now s + p_sess_delay (pars s)) (now s) <$> sessions s !! sid
                                    else sessions s !! sid).
Proof.
  intros Hi Hix Hsb Eid H. pose proof (sub_expire_one_keeps _ _ _ H) as Hk.
  split; [exact (keeps_now _ _ _ Hk eq_refl)|]. split; [exact (proj1 (keeps_par _ _ _ Hk eq_refl))|].
  destruct (sub_expire_one_effect _ _ _ H) as (sb0 & Hsb0 & E). rewrite Hsb in Hsb0. injection Hsb0 as <-.
  destruct E as [(Hact & s2 & Hh & Hd)|(Hact & s1 & Hr & Hd)]; [rewrite !bool_decide_eq_true_2 by exact Hact|rewrite !bool_decide_eq_false_2 by exact Hact].
  - destruct (sub_demote_fields _ _ _ _ Panic _ Hh ltac:(intros ?; discriminate) Hd) as (_ & K & _ & D2 & _).
    split; [rewrite D2, Eid; reflexivity|]. intros sid. rewrite (proj1 (proj2 (keeps_sess _ _ _ K eq_refl))).
    assert (Hk1' : kinv_sess (sub_unqueue s sb)) by (eapply kinv_sess_frame; [..|apply (ki_sess _ Hi)]; reflexivity).
    assert (Hix1 : idx_sess (sub_unqueue s sb)) by (eapply idx_sess_frame; [..|exact Hix]; reflexivity).
    rewrite (sub_pending_hook_sessions _ _ _ Hk1' Hix1 Hh sid). rewrite Eid. reflexivity.
  - destruct (keeps_sess _ _ _ (sub_remove_keeps _ _ _ _ Hr Hd) eq_refl) as (_ & Ess & _).
    destruct (keeps_sub _ _ _ (sub_refund_keeps _ _ _ Hr) eq_refl) as (_ & Es1 & _).
    destruct (sub_cleanup_subs s1 sb) as (F1 & _).
    split; [|intros sid; rewrite Ess; reflexivity].
    apply sub_delete_payout_effect in Hd. destruct (payout_of _ sb) as [[po|]|]; [|destruct Hd|]; subst s'; simpl; rewrite F1, Es1, Eid; reflexivity.
Qed.

(* the subscription end-blocker, one due entry at a time.  [Q rest x] is carried along the entries still to be
   processed; the step is told what the expiry of the entry's subscription does to subscriptions and sessions,
   and that no later entry belongs to the same subscription *)
Lemma sub_end_block_loop (Q : list (time * Z) -> state -> Prop) s s' :
  end_inv s -> sess_fresh s -> sub_end_block s = Ok s' ->
  Q (due_z (sub_q s) (now s)) s ->
  (forall id rest x x' sb,
     end_inv x -> now x = now s -> pars x = pars s ->
     subs x !! id = Some sb -> sb_inactive_at sb <= now s -> (forall t', (t', id) ∉ rest) ->
     now x' = now x ->
     subs x' = (if bool_decide (sb_status sb = SActive)
                then <[id := sb <| sb_inactive_at := now x + p_sub_delay (pars x) |> <| sb_status := SPending |> <| sb_status_at := now x |>]> (subs x)
                else delete id (subs x)) ->
     (forall sid, sessions x' !! sid = if bool_decide (sb_status sb = SActive)
                                       then demote_sess id (now x + p_sess_delay (pars x)) (now x) <$> sessions x !! sid
                                       else sessions x !! sid) ->
     Q ((sb_inactive_at sb, id) :: rest) x -> Q rest x') ->
  end_inv s' /\ sess_fresh s' /\ now s' = now s /\ pars s' = pars s /\ Q [] s'.
Proof.
  intros Hinv Hfr H HQ0 HQ. unfold sub_end_block in H.
  set (P := fun (rest : list (time * Z)) (x : state) =>
              end_inv x /\ sess_fresh x /\ now x = now s /\ pars x = pars s /\ NoDup rest /\
              (forall e, e ∈ rest -> e ∈ sub_q x /\ e.1 <= now s) /\ Q rest x).
  assert (G : P [] s').
  { eapply (rfold_rest P); [| |exact H].
    - intros e rest x x' (Hx & Hfx & N1 & N2 & Hnd & Hin & Hq) Hstep.
      apply NoDup_cons in Hnd as [Hnotin Hnd].
      destruct e as [t id]. destruct (Hin (t, id) ltac:(left)) as [He Hle]. simpl in Hle.
      destruct (proj1 (ix_subq _ (ei_sub _ Hx) t id) He) as (sb & Hsb & Hiat).
      destruct (k_sub _ (ki_sub _ (ei_k _ Hx)) _ _ Hsb) as (Eid & _).
      destruct (sub_expire_one_fields x (t, id) x' sb (ei_k _ Hx) (ei_sess _ Hx) Hsb Eid Hstep) as (M1 & M2 & M3 & M4). simpl in M3, M4.
      assert (Hx' : end_inv x').
      { destruct Hx as [A B C D E]. split.
        - eapply kinv_sub_expire_one; eauto.
        - eapply idx_sess_sub_expire_one; eauto.
        - eapply idx_sub_expire_one; eauto.
        - rewrite M2. exact D.
        - eapply link_sub_expire_one; eauto. simpl. lia. }
      split; [exact Hx'|]. split.
      { intros sid y Hy. rewrite M4 in Hy. rewrite M1. case_bool_decide.
        - destruct (sessions x !! sid) as [y0|] eqn:Hy0; [|discriminate]. simpl in Hy. injection Hy as <-.
          unfold demote_sess. case_bool_decide; simpl; [destruct (ei_par _ Hx); lia|apply (Hfx _ _ Hy0)].
        - apply (Hfx _ _ Hy). }
      split; [congruence|]. split; [congruence|]. split; [exact Hnd|]. split.
      + intros [t' id'] He'. destruct (Hin (t', id') ltac:(right; exact He')) as [He'q Hle']. split; [|exact Hle'].
        apply (ix_subq _ (ei_sub _ Hx')). destruct (proj1 (ix_subq _ (ei_sub _ Hx) t' id') He'q) as (sb' & Hsb' & Hiat').
        assert (Hne : id' <> id). { intros ->. rewrite Hsb in Hsb'. injection Hsb' as <-. apply Hnotin. rewrite <- Hiat, Hiat'. exact He'. }
        exists sb'. split; [|exact Hiat']. rewrite M3. case_bool_decide; [rewrite lookup_insert_ne by congruence|rewrite lookup_delete_ne by congruence]; exact Hsb'.
      + subst t. apply (HQ id rest x x' sb Hx N1 N2 Hsb Hle); [|exact M1|exact M3|exact M4|exact Hq].
        intros t' Hin'. destruct (Hin (t', id) ltac:(right; exact Hin')) as [Hq' _].
        destruct (proj1 (ix_subq _ (ei_sub _ Hx) t' id) Hq') as (sb' & Hsb' & Hiat'). rewrite Hsb in Hsb'. injection Hsb' as <-.
        apply Hnotin. rewrite Hiat'. exact Hin'.
    - split; [exact Hinv|]. split; [exact Hfr|]. split; [reflexivity|]. split; [reflexivity|]. split; [apply NoDup_due_z|]. split; [|exact HQ0].
      intros e He. apply elem_of_due_z in He. tauto. }
  destruct G as (G1 & G2 & G3 & G4 & _ & _ & G5). auto.
Qed.

Lemma sub_end_block_fresh s s' :
  end_inv s -> sess_fresh s -> sub_end_block s = Ok s' ->
  end_inv s' /\ sess_fresh s' /\ sub_fresh s' /\ now s' = now s /\ pars s' = pars s.
Proof.
  intros Hinv Hfr H.
  destruct (sub_end_block_loop
              (fun rest x => forall id sb, subs x !! id = Some sb -> sb_inactive_at sb <= now x -> (sb_inactive_at sb, id) ∈ rest)
              s s' Hinv Hfr H) as (G1 & G2 & G3 & G4 & G5).
  - intros id sb Hsb Hle. apply elem_of_due_z. split; [|exact Hle]. apply (ix_subq _ (ei_sub _ Hinv)). eauto.
  - intros id rest x x' sb Hx N1 N2 Hsb Hle Hnone M1 M3 _ Hdue id' sb' Hsb' Hle'. rewrite M3 in Hsb'. rewrite M1 in Hle'.
    destruct (decide (id' = id)) as [->|Hne].
    + case_bool_decide; [rewrite lookup_insert in Hsb'; injection Hsb' as <-; simpl in Hle'; destruct (ei_par _ Hx); lia|rewrite lookup_delete in Hsb'; discriminate].
    + assert (Hs0 : subs x !! id' = Some sb') by (revert Hsb'; case_bool_decide; [rewrite lookup_insert_ne by congruence|rewrite lookup_delete_ne by congruence]; auto).
      specialize (Hdue _ _ Hs0 Hle'). apply elem_of_cons in Hdue as [E|Hr]; [congruence|exact Hr].
  - split; [exact G1|]. split; [exact G2|]. split; [|split; assumption].
    intros id sb Hsb. destruct (Z_lt_le_dec (now s') (sb_inactive_at sb)) as [Hlt|Hle]; [exact Hlt|].
    specialize (G5 _ _ Hsb Hle). inversion G5.
Qed.

(** * nodes: the lease queue *)

Lemma node_expire_one_fields s e s' n :
  kinv_node s -> node_act s !! e.2 = Some n -> node_expire_one s e = Ok s' ->
  now s' = now s /\ node_act s' = delete e.2 (node_act s).
Proof.
  intros Hk Hn H. split; [exact (keeps_now _ _ _ (node_expire_one_keeps _ _ _ H) eq_refl)|].
  unfold node_expire_one in H. unfold get_node in H. rewrite Hn in H.
  destruct (k_na _ Hk _ _ Hn) as [Ea _].
  apply rbind_ok in H as (s2 & Hs & H). apply must_ok in Hs. injection H as <-.
  unfold set_node in Hs. simpl in Hs. injection Hs as <-. simpl. rewrite Ea. reflexivity.
Qed.

Lemma node_sweep_keeps_act_iat s s1 :
  kinv s -> rfold node_sweep_one (all_nodes s) s = Ok s1 ->
  kinv_node s1 /\ node_q s1 = node_q s /\ (forall a, act_iat s1 a = act_iat s a) /\ now s1 = now s.
Proof.
  intros Hi Hsw.
  set (P := fun x => (kinv_node x /\ same_dom (node_act x) (node_act s) /\ same_dom (node_inact x) (node_inact s)) /\
                     (forall a, act_iat x a = act_iat s a) /\ node_q x = node_q s /\ now x = now s).
  assert (HP : P s1).
  { eapply (rfold_inv_in P); [| |exact Hsw].
    - intros x n x' Hn (J & Hiat & Hq & Hnow) Hstep. split; [eapply kinv_node_sweep_one; eauto; apply Hi|].
      destruct (idx_node_sweep_one s x n x' (ki_node _ Hi) Hn J Hiat Hq Hstep) as [I1 I2]. split; [exact I1|]. split; [exact I2|].
      rewrite <- Hnow. exact (keeps_now _ _ _ (node_sweep_one_keeps _ _ _ Hstep) eq_refl).
    - split; [split; [apply Hi|split; intros k; reflexivity]|]. split; [reflexivity|]. split; reflexivity. }
  destruct HP as ((Hk1 & _) & Hiat & Hq & Hnow). auto.
Qed.

Lemma node_sweep_part s s1 :
  kinv s -> idx_node s ->
  (if m_max_gb (modified s) || m_min_gb (modified s) || m_max_hr (modified s) || m_min_hr (modified s)
   then rfold node_sweep_one (all_nodes s) s else Ok s) = Ok s1 ->
  kinv_node s1 /\ idx_node s1 /\ now s1 = now s /\ forall a, act_iat s1 a = act_iat s a.
Proof.
  intros Hi Hix Hsw. destruct (_ || _); [|injection Hsw as <-; split; [apply Hi|auto]].
  destruct (node_sweep_keeps_act_iat _ _ Hi Hsw) as (K1 & K2 & K3 & K4). split; [exact K1|]. split; [|auto].
  eapply idx_node_frame; eauto.
Qed.

(* the lease-expiry loop, one due entry at a time; [Q rest x] is carried along the entries still to be processed *)
Lemma node_expire_loop (Q : list (time * addr) -> state -> Prop) l x x' :
  kinv_node x -> idx_node x -> NoDup l -> (forall e, e ∈ l -> e ∈ node_q x) ->
  rfold node_expire_one l x = Ok x' -> Q l x ->
  (forall a rest y y' n,
     node_act y !! a = Some n -> now y' = now y -> node_act y' = delete a (node_act y) ->
     Q ((nd_inactive_at n, a) :: rest) y -> Q rest y') ->
  kinv_node x' /\ idx_node x' /\ Q [] x'.
Proof.
  intros Hk Hix Hnd Hin H HQ0 HQ.
  set (P := fun (rest : list (time * addr)) (y : state) =>
              kinv_node y /\ idx_node y /\ NoDup rest /\ (forall e, e ∈ rest -> e ∈ node_q y) /\ Q rest y).
  assert (G : P [] x').
  { eapply (rfold_rest P); [| |exact H]; [|split; [exact Hk|split; [exact Hix|auto]]].
    intros e rest y y' (Hky & Hiy & Hndy & Hiny & Hq) Hstep.
    apply NoDup_cons in Hndy as [Hnotin Hndy]. destruct e as [t a].
    assert (He : (t, a) ∈ node_q y) by (apply Hiny; left).
    destruct (proj1 (act_iat_spec y a t) (proj1 (Hiy t a) He)) as (n & Hn & Hiat).
    destruct (node_expire_one_fields y (t, a) y' n Hky Hn Hstep) as [M1 M2]. simpl in M2.
    pose proof (kinv_node_expire_one _ _ _ Hky Hstep) as Hky'. pose proof (idx_node_expire_one _ _ _ Hky Hiy Hstep) as Hiy'.
    split; [exact Hky'|]. split; [exact Hiy'|]. split; [exact Hndy|]. split.
    - intros [t' a'] He'. assert (He'q : (t', a') ∈ node_q y) by (apply Hiny; right; exact He').
      apply Hiy'. apply act_iat_spec. destruct (proj1 (act_iat_spec y a' t') (proj1 (Hiy t' a') He'q)) as (n' & Hn' & Hiat').
      assert (Hne : a' <> a). { intros ->. rewrite Hn in Hn'. injection Hn' as <-. apply Hnotin. rewrite <- Hiat, Hiat'. exact He'. }
      exists n'. split; [|exact Hiat']. rewrite M2, lookup_delete_ne by congruence. exact Hn'.
    - subst t. exact (HQ a rest y y' n Hn M1 M2 Hq). }
  destruct G as (G1 & G2 & _ & _ & G3). auto.
Qed.

Lemma node_end_block_fresh s s' :
  kinv s -> idx_node s -> node_end_block s = Ok s' -> node_fresh s' /\ now s' = now s.
Proof.
  intros Hi Hix H. unfold node_end_block in H. apply rbind_ok in H as (s1 & Hsw & H).
  destruct (node_sweep_part _ _ Hi Hix Hsw) as (Hk1 & Hix1 & Hn1 & _).
  destruct (node_expire_loop
              (fun rest x => now x = now s /\ forall a n, node_act x !! a = Some n -> nd_inactive_at n <= now x -> (nd_inactive_at n, a) ∈ rest)
              (due_a (node_q s1) (now s1)) s1 s' Hk1 Hix1 (NoDup_due_a _ _) ltac:(intros e He; apply elem_of_due_a in He; tauto) H) as (_ & _ & G3 & G5).
  - split; [exact Hn1|]. intros a n Hn Hle. apply elem_of_due_a. split; [|exact Hle]. apply Hix1. apply act_iat_spec. eauto.
  - intros a rest y y' n Hn M1 M2 [N1 Hdue]. split; [congruence|].
    intros a' n' Hn' Hle'. rewrite M2 in Hn'. rewrite M1 in Hle'. apply lookup_delete_Some in Hn' as [Hne Hn'].
    specialize (Hdue _ _ Hn' Hle'). apply elem_of_cons in Hdue as [E|Hr]; [congruence|exact Hr].
  - split; [|exact G3]. intros a n Hn. destruct (Z_lt_le_dec (now s') (nd_inactive_at n)) as [Hlt|Hle]; [exact Hlt|].
    specialize (G5 _ _ Hn Hle). inversion G5.
Qed.

(** * every operation, every history *)

Record life_inv (s : state) : Prop := { lf_idx : all_idx s; lf_par : par_ok (pars s); lf_link : link_inv s }.

Lemma life_end_inv s : life_inv s -> end_inv s.
Proof. intros [A B C]. split; [apply A|apply A|apply A|exact B|exact C]. Qed.

Lemma link_clear s : link_inv s -> link_inv (clear_events s).
Proof. apply link_mono; auto. simpl. lia. Qed.

(* the state after the three end-blockers *)
Lemma end_block_fields s s' :
  life_inv s -> end_block s = Ok s' ->
  link_inv s' /\ pars s' = pars s /\ now s' = now s /\ sess_fresh s' /\ sub_fresh s' /\ node_fresh s'.
Proof.
  intros Hl H. apply end_block_effect in H as (s1 & s2 & H1 & H2 & H3).
  pose proof (life_end_inv _ Hl) as Hinv. destruct Hl as [Hall _ _].
  destruct (node_end_block_fresh _ _ (ei_k _ Hinv) (ai_node _ Hall) H1) as [Nf N1].
  pose proof (node_end_block_keeps _ _ H1) as K1. pose proof (end_inv_node_end_block _ _ Hinv H1) as Hinv1.
  destruct (session_end_block_fresh _ _ Hinv1 H2) as (Hinv2 & Sf2 & N2 & P2).
  destruct (sub_end_block_fresh _ _ Hinv2 Sf2 H3) as (Hinv3 & Sf3 & Bf3 & N3 & P3).
  split; [apply Hinv3|]. split; [rewrite P3, P2; exact (proj1 (keeps_par _ _ _ K1 eq_refl))|]. split; [lia|]. split; [exact Sf3|]. split; [exact Bf3|].
  intros a n Hn.
  rewrite (proj1 (keeps_node _ _ _ (sub_end_block_keeps _ _ H3) eq_refl)), (proj1 (keeps_node _ _ _ (session_end_block_keeps _ _ H2) eq_refl)) in Hn.
  specialize (Nf _ _ Hn). lia.
Qed.

Lemma pars_fold_clear cs : forall s0, pars (fold_left apply_pchange cs (clear_events s0)) = pars (fold_left apply_pchange cs s0).
Proof.
  induction cs as [|c cs IH]; intros s0; [reflexivity|]. simpl.
  replace (apply_pchange (clear_events s0) c) with (clear_events (apply_pchange s0 c)) by (destruct c; reflexivity). apply IH.
Qed.

(* the per-key validators keep every single-field condition of [par_ok] *)
Definition par_keys_ok (p : params) : Prop :=
  0 < p_sub_delay p /\ 0 < p_sess_delay p /\ 0 < p_node_active p /\ 0 <= p_node_share p <= P18 /\ 0 <= p_prov_share p <= P18.
Lemma pchange_valid_keys s c : pchange_valid c = true -> par_keys_ok (pars s) -> par_keys_ok (pars (apply_pchange s c)).
Proof.
  unfold par_keys_ok. intros Hv Hk. destruct c; simpl in *; unfold pos_i64, share_ok in Hv; try exact Hk;
    repeat match goal with H : _ && _ = true |- _ => apply andb_true_iff in H as [? ?] end; intuition lia.
Qed.
Lemma gov_par_ok cs : forall s,
  par_ok (pars s) -> forallb pchange_valid cs = true ->
  p_sess_delay (pars (fold_left apply_pchange cs s)) <= p_sub_delay (pars (fold_left apply_pchange cs s)) ->
  par_ok (pars (fold_left apply_pchange cs s)).
Proof.
  intros s [A B C D E F] Hv Hd.
  assert (K : par_keys_ok (pars (fold_left apply_pchange cs s))).
  { assert (K0 : par_keys_ok (pars s)) by (unfold par_keys_ok; auto).
    clear -Hv K0. revert s K0. induction cs as [|c cs IH]; intros s K0; simpl in *; [exact K0|].
    apply andb_true_iff in Hv as [H1 H2]. apply IH; [exact H2|]. apply pchange_valid_keys; assumption. }
  destruct K as (K1 & K2 & K3 & K4 & K5). split; auto.
Qed.

Lemma life_clear s : life_inv s -> life_inv (clear_events s).
Proof. intros Hl. split; [apply all_idx_clear; apply Hl|apply Hl|apply link_clear; apply Hl]. Qed.

Theorem life_step s o s' : life_inv s -> wf_op_life s o -> step s o = OOk s' -> life_inv s'.
Proof.
  intros Hl Hwf H. pose proof (all_idx_step _ _ _ (lf_idx _ Hl) H) as Hall'. split; [exact Hall'| |].
  - (* parameters only change through governance *)
    apply step_inv in H. destruct o.
    + rename H into Hb. rename s' into x. apply begin_block_keeps in Hb.
      rewrite (proj1 (keeps_par _ _ _ Hb eq_refl)). apply Hl.
    + destruct H as [_ Hh]. rewrite (proj1 (keeps_par _ _ _ (handle_keeps _ _ _ Hh) eq_refl)). apply Hl.
    + destruct H as [Hgate ->]. simpl in Hwf. destruct (Hwf Hgate) as [Hp _].
      rewrite pars_fold_clear. apply gov_par_ok; [apply Hl|exact Hgate|exact Hp].
    + destruct H as (x & He & ->). apply end_block_keeps in He.
      simpl. rewrite (proj1 (keeps_par _ _ _ He eq_refl)). apply Hl.
  - apply step_inv in H. destruct o.
    + eapply link_begin_block; [exact Hwf|apply Hl|exact H].
    + destruct H as [Hv Hh]. pose proof (all_idx_clear _ (lf_idx _ Hl)) as Hc.
      eapply link_handle; [apply Hc|apply Hc|apply Hc|apply Hl|apply link_clear; apply Hl|exact Hv|exact Hh].
    + destruct H as [Hgate ->]. simpl in Hwf. destruct (Hwf Hgate) as [_ Hb].
      destruct (lf_link _ Hl) as [L]. split.
      assert (F : sessions (fold_left apply_pchange cs (clear_events s)) = sessions s /\ subs (fold_left apply_pchange cs (clear_events s)) = subs s /\
                  allocs (fold_left apply_pchange cs (clear_events s)) = allocs s /\ now (fold_left apply_pchange cs (clear_events s)) = now s /\
                  p_sub_delay (pars (fold_left apply_pchange cs (clear_events s))) = p_sub_delay (pars (fold_left apply_pchange cs s))).
      { pose proof (fold_pchange_keeps cs (clear_events s)) as K. destruct (keeps_sub _ _ _ K eq_refl) as (_ & G2 & _ & _ & _ & _ & G3 & _).
        destruct (keeps_sess _ _ _ K eq_refl) as (_ & G1 & _). pose proof (keeps_now _ _ _ K eq_refl) as G4. repeat split; try assumption.
        rewrite pars_fold_clear. reflexivity. }
      destruct F as (F1 & F2 & F3 & F4 & F5). rewrite F1, F2, F3, F4, F5. intros sid x Hx.
      destruct (L _ _ Hx) as (sb & Hsb & Hha & L1 & L2 & L3). exists sb. split; [exact Hsb|]. split; [exact Hha|]. split; [exact L1|].
      split; [exact L2|]. intros P1 _. apply (Hb _ _ Hx P1).
    + destruct H as (x & He & ->).
      pose proof (life_clear _ Hl) as Hl0.
      destruct (end_block_fields _ _ Hl0 He) as (G & _). apply (link_mono x); auto. simpl. lia.
Qed.

(* the state right after the end-blocker: every live deadline lies in the future *)
Theorem deadlines_met s s' :
  life_inv s -> step s OEnd = OOk s' ->
  (forall sid x, sessions s' !! sid = Some x -> now s' < ss_inactive_at x) /\
  (forall id sb, subs s' !! id = Some sb -> now s' < sb_inactive_at sb) /\
  (forall a n, node_act s' !! a = Some n -> now s' < nd_inactive_at n).
Proof.
  intros Hl H. apply step_inv in H as (x & He & ->).
  pose proof (life_clear _ Hl) as Hl0.
  destruct (end_block_fields _ _ Hl0 He) as (_ & _ & _ & S & B & N). auto.
Qed.

Fixpoint wf_hist (P : state -> op -> Prop) (s : state) (ops : list op) : Prop :=
  match ops with
  | [] => True
  | o :: r => P s o /\ match step s o with OOk s' => wf_hist P s' r | ORejected => wf_hist P (clear_events s) r | OHalt => True end
  end.

Theorem life_run ops : forall s i s', life_inv s -> wf_hist wf_op_life s ops -> run_from s ops i = RunOk s' -> life_inv s'.
Proof.
  induction ops as [|o ops IH]; simpl; intros s i s' Hl Hwf H.
  - injection H as <-. exact Hl.
  - destruct Hwf as [Hw1 Hw2]. destruct (step s o) eqn:E; try discriminate.
    + eapply IH; [eapply life_step; eauto|exact Hw2|exact H].
    + eapply IH; [apply life_clear; exact Hl|exact Hw2|exact H].
Qed.

Lemma link_inv_init g : link_inv (init g).
Proof.
  split. intros sid x Hx. destruct (keeps_sess _ _ _ (init_keeps g) eq_refl) as (_ & E & _). rewrite E in Hx. simpl in Hx. rewrite lookup_empty in Hx. discriminate.
Qed.

Theorem life_init g : par_ok (g_params g) -> life_inv (init g).
Proof.
  intros Hp. split; [apply all_idx_init| |apply link_inv_init].
  rewrite (proj1 (keeps_par _ _ _ (init_keeps g) eq_refl)). exact Hp.
Qed.
