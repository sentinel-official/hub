(* C12 (first half: "the exported genesis is valid"): every stored record passes the module's own Validate, in every
   state reachable inside the configuration domain (valid parameter sets, kept valid by governance; validated inflation
   schedule; block times after the zero time).  This file: the invariant [rec_inv] and its preservation by one operation
   ([rec_step]); RecValidClosed.v lifts it to histories and concludes that validate (export s) accepts every section. *)
From Hub Require Import Base.Prelude Base.Arith Model.Types Model.Keeper Model.Handlers Model.Hooks Model.Step Model.Genesis.
From Hub Require Import Proofs.Tactics Proofs.Sorting Proofs.Frames Proofs.KeysInv Proofs.Lifecycle Proofs.Bounds Proofs.Link Proofs.Range
  Proofs.GenesisRT Proofs.GenesisReach Proofs.Effects.

(** * coins *)

Definition coins_pos (c : coins) : Prop := forall d a, c !! d = Some a -> 0 < a /\ d <> 0%N.

Lemma coins_ok_pos c : coins_ok c = true <-> coins_pos c.
Proof.
  unfold coins_ok, coins_pos. rewrite forallb_forall. split.
  - intros H d a Hl. specialize (H (d, a)). rewrite <- elem_of_list_In, elem_of_coins_list in H. specialize (H Hl).
    apply andb_true_iff in H as [A B]. apply Z.ltb_lt in A. apply negb_true_iff, N.eqb_neq in B. auto.
  - intros H [d a] Hin. rewrite <- elem_of_list_In, elem_of_coins_list in Hin. destruct (H _ _ Hin) as [A B].
    apply andb_true_iff. split; [apply Z.ltb_lt; exact A|apply negb_true_iff, N.eqb_neq; exact B].
Qed.

Lemma coins_nonempty_ok_pos c : coins_nonempty_ok c = true <-> c <> ∅ /\ coins_pos c.
Proof.
  unfold coins_nonempty_ok. rewrite andb_true_iff, negb_true_iff, bool_decide_eq_false, coins_ok_pos. reflexivity.
Qed.

Lemma coins_pos_set c d a : coins_pos c -> 0 <= a -> (a <> 0 -> d <> 0%N) -> coins_pos (coins_set c d a).
Proof.
  intros Hc Ha Hd. unfold coins_set. destruct (Z.eqb_spec a 0) as [E|E]; intros d' a' Hl.
  - apply lookup_delete_Some in Hl as [_ Hl]. exact (Hc _ _ Hl).
  - apply lookup_insert_Some in Hl as [[<- <-]|[_ Hl]]; [split; [lia|auto]|exact (Hc _ _ Hl)].
Qed.

Lemma coins_set_nonempty c d a : 0 < a -> coins_set c d a <> ∅.
Proof. intros Ha. unfold coins_set. destruct (Z.eqb_spec a 0); [lia|]. apply insert_non_empty. Qed.

Lemma amount_of_nonneg c d : coins_pos c -> 0 <= amount_of c d.
Proof. intros Hc. unfold amount_of. destruct (c !! d) as [a|] eqn:E; simpl; [destruct (Hc _ _ E); lia|lia]. Qed.

(* a validated Coins field of a message *)
Lemma coins_sorted_pos l : coins_sorted l = true -> forall d a, (d, a) ∈ l -> 0 < a /\ d <> 0%N.
Proof.
  induction l as [|[d0 a0] l IH]; intros H d a Hin; [inversion Hin|]. simpl in H.
  repeat rewrite andb_true_iff in H. destruct H as [[[A B] _] C]. apply Z.ltb_lt in A. apply negb_true_iff, N.eqb_neq in B.
  apply elem_of_cons in Hin as [E|Hin]; [injection E as -> ->; auto|].
  destruct l as [|[d1 a1] l']; [inversion Hin|]. apply andb_true_iff in C as [_ C]. exact (IH C _ _ Hin).
Qed.

Lemma coins_of_field_ok l : negb (bool_decide (l = [])) && coins_sorted l = true -> coins_nonempty_ok (coins_of l) = true.
Proof.
  rewrite andb_true_iff, negb_true_iff, bool_decide_eq_false. intros [Hne Hs]. apply coins_nonempty_ok_pos. split.
  - destruct l as [|[d a] l]; [contradiction|]. unfold coins_of. simpl. apply insert_non_empty.
  - intros d a Hl. unfold coins_of in Hl. apply elem_of_list_to_map_2 in Hl. exact (coins_sorted_pos _ Hs _ _ Hl).
Qed.

(* a Coins parameter that passed its validator *)
Lemma coins_param_ok_ok l : coins_param_ok l = true -> coins_ok (coins_of l) = true.
Proof.
  unfold coins_param_ok. intros H. apply orb_true_iff in H as [H|H].
  - apply bool_decide_eq_true in H. subst l. reflexivity.
  - apply coins_ok_pos. intros d a Hl. unfold coins_of in Hl. apply elem_of_list_to_map_2 in Hl. exact (coins_sorted_pos _ H _ _ Hl).
Qed.

(* the per-key validators of a governance change are exactly what Params.Validate of the modules checks *)
Lemma coin_param_ok_deposit c : coin_param_ok c = true -> deposit_coin_ok c = true.
Proof. unfold coin_param_ok, deposit_coin_ok, denom_ok. rewrite !andb_true_iff. tauto. Qed.
Lemma pos_i64_pos z : pos_i64 z = true -> (0 <? z) = true.
Proof. unfold pos_i64. rewrite andb_true_iff. tauto. Qed.

Lemma prov_params_ok_change s c :
  pchange_valid c = true -> prov_params_ok (pars s) = true -> prov_params_ok (pars (apply_pchange s c)) = true.
Proof.
  intros Hv A. destruct c; try exact A; simpl in Hv; unfold prov_params_ok in A |- *; simpl; apply andb_true_iff in A as [A1 A2].
  - rewrite (coin_param_ok_deposit _ Hv), A2. reflexivity.
  - rewrite A1. exact Hv.
Qed.

Lemma node_params_ok_change s c :
  pchange_valid c = true -> node_params_ok (pars s) = true -> node_params_ok (pars (apply_pchange s c)) = true.
Proof.
  intros Hv B. destruct c; try exact B; simpl in Hv; unfold node_params_ok in B |- *;
    first [apply coin_param_ok_deposit in Hv | apply pos_i64_pos in Hv | apply coins_param_ok_ok in Hv | idtac];
    (* both chains differ in the one conjunct the change writes *)
    repeat (apply andb_true_iff in B as [B ?]; apply andb_true_iff; split; [|assumption]); assumption.
Qed.

Lemma swap_params_ok_change s c :
  pchange_valid c = true -> swap_params_ok (pars s) = true -> swap_params_ok (pars (apply_pchange s c)) = true.
Proof.
  intros Hv E. destruct c; try exact E; simpl in Hv; unfold swap_params_ok in E |- *; simpl; apply andb_true_iff in E as [E1 E2].
  - unfold denom_ok in Hv. rewrite Hv, E2. reflexivity.
  - rewrite E1. exact Hv.
Qed.

Lemma pchange_valid_params s c : pchange_valid c = true -> params_valid (pars s) -> params_valid (pars (apply_pchange s c)).
Proof.
  intros Hv (A & B & C & D & E).
  split; [exact (prov_params_ok_change _ _ Hv A)|]. split; [exact (node_params_ok_change _ _ Hv B)|].
  split; [|split; [|exact (swap_params_ok_change _ _ Hv E)]]; destruct c; try assumption; exact (pos_i64_pos _ Hv).
Qed.
Lemma gov_params_valid cs : forall s, forallb pchange_valid cs = true -> params_valid (pars s) -> params_valid (pars (fold_left apply_pchange cs s)).
Proof.
  induction cs as [|c cs IH]; intros s Hv Hp; simpl in *; [exact Hp|]. apply andb_true_iff in Hv as [H1 H2].
  apply IH; [exact H2|]. apply pchange_valid_params; assumption.
Qed.

(* the end-of-block price sweep keeps a price vector valid *)
Lemma clamp_fold_pos (cmp : Z -> Z -> bool) (l : list coin) : forall p,
  (forall d a, (d, a) ∈ l -> 0 < a /\ d <> 0%N) -> p <> ∅ /\ coins_pos p ->
  let f := fun p '(d, a) => if cmp a (amount_of p d) then coins_set p d a else p in
  fold_left f l p <> ∅ /\ coins_pos (fold_left f l p).
Proof.
  induction l as [|[d a] l IH]; intros p Hl Hp; [exact Hp|]. simpl. apply IH; [intros d' a' Hin; apply Hl; right; exact Hin|].
  destruct (Hl d a ltac:(left)) as [Ha Hd]. destruct (cmp a (amount_of p d)); [|exact Hp].
  split; [apply coins_set_nonempty; exact Ha|apply coins_pos_set; [apply Hp|lia|auto]].
Qed.

Lemma clamp_max_ok p b : coins_ok b = true -> coins_nonempty_ok p = true -> coins_nonempty_ok (clamp_max p b) = true.
Proof.
  intros Hb Hp. apply coins_nonempty_ok_pos. apply coins_nonempty_ok_pos in Hp. apply coins_ok_pos in Hb. unfold clamp_max.
  apply (clamp_fold_pos (fun a x => a <? x) (coins_list b) p); [|exact Hp]. intros d a Hin. apply elem_of_coins_list in Hin. exact (Hb _ _ Hin).
Qed.
Lemma clamp_min_ok p b : coins_ok b = true -> coins_nonempty_ok p = true -> coins_nonempty_ok (clamp_min p b) = true.
Proof.
  intros Hb Hp. apply coins_nonempty_ok_pos. apply coins_nonempty_ok_pos in Hp. apply coins_ok_pos in Hb. unfold clamp_min.
  apply (clamp_fold_pos (fun a x => x <? a) (coins_list b) p); [|exact Hp]. intros d a Hin. apply elem_of_coins_list in Hin. exact (Hb _ _ Hin).
Qed.

(** * the invariant *)

Record rec_inv (s : state) : Prop := {
  rv_time : tzero < now s;
  rv_dep : dep_records_ok s;
  rv_prov : prov_records_ok s;
  rv_node : node_records_ok s;
  rv_plan : plan_records_ok s;
  rv_sess : sess_records_ok s;
  rv_swap : swap_records_ok s;
  rv_infl : infl_records_ok s;
  rv_pars : params_valid (pars s) }.

(* operations of the domain: time moves forward.  (Governance needs no premise: a proposal is executed only if
   every change passes its per-key validator, and those are exactly what the modules' Params.Validate check.) *)
Definition wf_op_rec (s : state) (o : op) : Prop :=
  match o with
  | OBegin t => now s < t
  | _ => True
  end.

(** * deposits *)

Lemma dep_ok_frame s s' : deposits s' = deposits s -> dep_records_ok s -> dep_records_ok s'.
Proof. unfold dep_records_ok. intros ->. auto. Qed.
Lemma dep_ok_keeps T s s' : keeps T s s' -> touched GDep T = false -> dep_records_ok s -> dep_records_ok s'.
Proof. intros Hk Ht. exact (dep_ok_frame _ _ (keeps_dep _ _ _ Hk Ht)). Qed.

Lemma validate_deposit_iff a c : validate_deposit (a, c) = true <-> addr_ok a = true /\ c <> ∅ /\ coins_pos c.
Proof. unfold validate_deposit. simpl. rewrite andb_true_iff, coins_nonempty_ok_pos. reflexivity. Qed.

Lemma dep_ok_store s a c :
  dep_records_ok s -> (c <> ∅ -> validate_deposit (a, c) = true) -> dep_records_ok (dep_store s a c).
Proof.
  intros Hd Hc. unfold dep_store. case_bool_decide as E; intros a' c' Hl; simpl in Hl.
  - apply lookup_delete_Some in Hl as [_ Hl]. exact (Hd _ _ Hl).
  - apply lookup_insert_Some in Hl as [[<- <-]|[_ Hl]]; [exact (Hc E)|exact (Hd _ _ Hl)].
Qed.

Lemma bank_send_nonneg s f t d amt s' : bank_send s f t d amt = Ok s' -> 0 <= amt.
Proof. unfold bank_send. destruct (Z.ltb_spec amt 0); [discriminate|]. intros _. assumption. Qed.

Lemma dep_remaining_valid s from d amt dep' :
  dep_records_ok s -> 0 <= amt -> dep_remaining s from d amt = Ok dep' -> dep' <> ∅ -> validate_deposit (from, dep') = true.
Proof.
  intros Hd Ha H Hne. unfold dep_remaining in H. destruct (deposits s !! from) as [dep|] eqn:E; [|discriminate].
  revert H. destruct (Z.ltb_spec (amount_of dep d - amt) 0) as [Hlt|Hge]; intros H; [discriminate|]. injection H as <-.
  pose proof (Hd _ _ E) as Hv. apply validate_deposit_iff in Hv as (A & _ & C). apply validate_deposit_iff. split; [exact A|]. split; [exact Hne|].
  apply coins_pos_set; [exact C|lia|]. intros Hr. unfold amount_of in *. destruct (dep !! d) as [v|] eqn:Ev; simpl in *; [exact (proj2 (C _ _ Ev))|lia].
Qed.

(* a debit of the escrow: the remaining coins are stored over the state [s1] left by the bank transfer *)
Lemma dep_ok_debit s s1 f d amt dep' :
  dep_records_ok s -> keeps [GBank] s s1 -> 0 <= amt -> dep_remaining s f d amt = Ok dep' -> dep_records_ok (dep_store s1 f dep').
Proof.
  intros Hd Hk Ha Hr. apply dep_ok_store; [exact (dep_ok_keeps _ _ _ Hk eq_refl Hd)|]. exact (dep_remaining_valid _ _ _ _ _ Hd Ha Hr).
Qed.

Lemma dep_ok_to_account s f t d amt s' : dep_records_ok s -> dep_to_account s f t d amt = Ok s' -> dep_records_ok s'.
Proof.
  intros Hd H. unfold dep_to_account in H. apply rbind_ok in H as (dep' & Hr & H). apply rbind_ok in H as (s1 & Hs & H). injection H as <-.
  unfold bank_send_to_account in Hs. destruct (is_blocked s t); [discriminate|].
  exact (dep_ok_debit _ _ _ _ _ _ Hd (bank_send_keeps _ _ _ _ _ _ Hs) (bank_send_nonneg _ _ _ _ _ _ Hs) Hr).
Qed.

Lemma dep_ok_to_module s f m d amt s' : dep_records_ok s -> dep_to_module s f m d amt = Ok s' -> dep_records_ok s'.
Proof.
  intros Hd H. unfold dep_to_module in H. apply rbind_ok in H as (dep' & Hr & H). apply rbind_ok in H as (s1 & Hs & H). injection H as <-.
  exact (dep_ok_debit _ _ _ _ _ _ Hd (bank_send_keeps _ _ _ _ _ _ Hs) (bank_send_nonneg _ _ _ _ _ _ Hs) Hr).
Qed.

Lemma dep_ok_z_to_account s f t (c : coin) s' : dep_records_ok s -> z_dep_to_account s f t c = Ok s' -> dep_records_ok s'.
Proof. intros Hd H. unfold z_dep_to_account in H. destruct (c.2 =? 0); [injection H as <-; exact Hd|eapply dep_ok_to_account; eauto]. Qed.
Lemma dep_ok_z_to_module s f m (c : coin) s' : dep_records_ok s -> z_dep_to_module s f m c = Ok s' -> dep_records_ok s'.
Proof. intros Hd H. unfold z_dep_to_module in H. destruct (c.2 =? 0); [injection H as <-; exact Hd|eapply dep_ok_to_module; eauto]. Qed.

Lemma dep_ok_z_add s a (c : coin) s' :
  dep_records_ok s -> addr_ok a = true -> (c.2 <> 0 -> c.1 <> 0%N) -> z_dep_add s a c = Ok s' -> dep_records_ok s'.
Proof.
  intros Hd Ha Hc H. unfold z_dep_add in H. destruct (c.2 =? 0) eqn:E; [injection H as <-; exact Hd|]. apply Z.eqb_neq in E.
  unfold dep_add in H. apply rbind_ok in H as (s1 & Hs & H). injection H as <-.
  pose proof (bank_send_nonneg _ _ _ _ _ _ Hs) as Hamt.
  pose proof (dep_ok_keeps _ _ _ (bank_send_keeps _ _ _ _ _ _ Hs) eq_refl Hd) as Hd1.
  intros a' c' Hl. simpl in Hl. apply lookup_insert_Some in Hl as [[<- <-]|[_ Hl]]; [|exact (Hd1 _ _ Hl)].
  apply validate_deposit_iff. split; [exact Ha|].
  assert (Hp : coins_pos (dep_of s1 a)).
  { unfold dep_of. destruct (deposits s1 !! a) as [c0|] eqn:E0; simpl; [pose proof (Hd1 _ _ E0) as Hv; apply validate_deposit_iff in Hv as (_ & _ & C); exact C|].
    intros d' a' Hx. rewrite lookup_empty in Hx. discriminate. }
  pose proof (amount_of_nonneg _ c.1 Hp). unfold coins_add.
  split; [apply coins_set_nonempty; lia|apply coins_pos_set; [exact Hp|lia|intros _; apply Hc; exact E]].
Qed.

(** * providers and plans: records in two partitions *)

Lemma prov_ok_frame s s' : prov_act s' = prov_act s -> prov_inact s' = prov_inact s -> prov_records_ok s -> prov_records_ok s'.
Proof. unfold prov_records_ok. intros -> ->. auto. Qed.
Lemma plan_ok_frame s s' : plan_act s' = plan_act s -> plan_inact s' = plan_inact s -> plan_records_ok s -> plan_records_ok s'.
Proof. unfold plan_records_ok. intros -> ->. auto. Qed.

Lemma prov_ok_get s a p : prov_records_ok s -> get_provider s a = Some p -> validate_provider p = true.
Proof. intros H Hg. apply H. unfold get_provider in Hg. destruct (prov_act s !! a) eqn:E; [injection Hg as <-; left; eauto|right; eauto]. Qed.
Lemma plan_ok_get s id p : plan_records_ok s -> get_plan s id = Some p -> validate_plan p = true.
Proof. intros H Hg. apply H. apply get_plan_cases in Hg as [Hg|[_ Hg]]; [left|right]; eauto. Qed.

Lemma prov_ok_set s p s' : prov_records_ok s -> validate_provider p = true -> set_provider s p = Ok s' -> prov_records_ok s'.
Proof.
  intros H Hp Hs. unfold set_provider in Hs. destruct (pv_status p); try discriminate; injection Hs as <-; intros q [[a Hq]|[a Hq]]; simpl in Hq;
    try (apply lookup_insert_Some in Hq as [[_ <-]|[_ Hq]]; [exact Hp|]); apply H; eauto.
Qed.
Lemma plan_ok_set s p s' : plan_records_ok s -> validate_plan p = true -> set_plan s p = Ok s' -> plan_records_ok s'.
Proof.
  intros H Hp Hs. unfold set_plan in Hs. destruct (pl_status p); try discriminate; injection Hs as <-; intros q [[a Hq]|[a Hq]]; simpl in Hq;
    try (apply lookup_insert_Some in Hq as [[_ <-]|[_ Hq]]; [exact Hp|]); apply H; eauto.
Qed.

(* dropping entries of a partition keeps the rest valid *)
Lemma prov_ok_sub s s' : prov_act s' ⊆ prov_act s -> prov_inact s' ⊆ prov_inact s -> prov_records_ok s -> prov_records_ok s'.
Proof. intros A B H p [[a Hp]|[a Hp]]; apply H; [left|right]; exists a; eapply lookup_weaken; eauto. Qed.
Lemma plan_ok_sub s s' : plan_act s' ⊆ plan_act s -> plan_inact s' ⊆ plan_inact s -> plan_records_ok s -> plan_records_ok s'.
Proof. intros A B H p [[a Hp]|[a Hp]]; apply H; [left|right]; exists a; eapply lookup_weaken; eauto. Qed.

(** * sessions *)

Lemma sess_ok_frame s s' : sessions s' = sessions s -> sess_records_ok s -> sess_records_ok s'.
Proof. unfold sess_records_ok. intros ->. auto. Qed.

(* a session made pending at a time after the zero time stays a valid record *)
Lemma validate_session_pending x t t' :
  validate_session x = true -> t <> tzero -> t' <> tzero ->
  validate_session (x <| ss_inactive_at := t |> <| ss_status := SPending |> <| ss_status_at := t' |>) = true.
Proof.
  unfold validate_session. simpl. repeat rewrite andb_true_iff. intros [[[[[[[[[A B] C] D] E] F] G] _] _] _] Ht Ht'.
  repeat split; auto; apply negb_true_iff, Z.eqb_neq; assumption.
Qed.

Lemma sess_ok_pending_hook s id s' :
  tzero < now s -> 0 < p_sess_delay (pars s) -> sess_records_ok s -> sub_pending_hook s id = Ok s' -> sess_records_ok s'.
Proof.
  intros Ht Hd H Hp. refine (sub_pending_hook_forall (fun x => validate_session x = true) _ _ _ Hp _ H).
  intros x Hx. apply validate_session_pending; [exact Hx|lia|lia].
Qed.

(* the tail shared by MsgCancel and the expiry of an active subscription *)
Lemma sess_ok_demote_tail s0 id s1 sb m s' :
  sub_pending_hook s0 id = Ok s1 -> (forall x, m <> Ok x) -> detach_payout (sub_make_pending s1 sb) sb m = Ok s' ->
  tzero < now s0 -> 0 < p_sess_delay (pars s0) -> sess_records_ok s0 -> sess_records_ok s'.
Proof.
  intros Hp Hm H Ht Hd S. destruct (detach_payout_fields _ _ _ _ Hm H) as (D1 & _).
  apply (sess_ok_frame (sub_make_pending s1 sb)); [exact D1|]. exact (sess_ok_pending_hook _ _ _ Ht Hd S Hp).
Qed.

(** * the invariant through an operation that writes only some stores *)

Lemma params_valid_facts p : params_valid p ->
  0 < p_node_active p /\ 0 < p_sess_delay p /\ p_swap_denom p <> 0%N /\
  coins_ok (p_max_gb p) = true /\ coins_ok (p_min_gb p) = true /\ coins_ok (p_max_hr p) = true /\ coins_ok (p_min_hr p) = true.
Proof.
  intros (_ & Hn & _ & Hs & Hw). unfold node_params_ok, sess_params_ok, swap_params_ok in *.
  repeat rewrite andb_true_iff in Hn. destruct Hn as [[[[[[[[[[_ A] B] C] D] E] _] _] _] _] _].
  apply andb_true_iff in Hw as [W _]. apply Z.ltb_lt in A, Hs. apply negb_true_iff, N.eqb_neq in W. auto 10.
Qed.

Lemma rec_inv_keeps T s s' :
  keeps T s s' -> touched GNow T = false -> rec_inv s ->
  (touched GDep T = true -> dep_records_ok s') -> (touched GPv T = true -> prov_records_ok s') ->
  (touched GNode T = true -> node_records_ok s') -> (touched GPl T = true -> plan_records_ok s') ->
  (touched GSess T = true -> sess_records_ok s') -> (touched GSwap T = true -> swap_records_ok s') ->
  (touched GMint T = true -> infl_records_ok s') -> (touched GPar T = true -> params_valid (pars s')) -> rec_inv s'.
Proof.
  intros Hk Tn [T0 D P N L S W I Q] HD HP HN HL HS HW HI HQ.
  split.
  - rewrite (keeps_now _ _ _ Hk Tn). exact T0.
  - destruct (touched GDep T) eqn:E; [exact (HD eq_refl)|exact (dep_ok_keeps _ _ _ Hk E D)].
  - destruct (touched GPv T) eqn:E; [exact (HP eq_refl)|]. destruct (keeps_pv _ _ _ Hk E) as [A B]. exact (prov_ok_frame _ _ A B P).
  - destruct (touched GNode T) eqn:E; [exact (HN eq_refl)|]. intros n Hn. exact (N _ (stored_node_keeps _ _ _ _ Hk E Hn)).
  - destruct (touched GPl T) eqn:E; [exact (HL eq_refl)|]. destruct (keeps_plan _ _ _ Hk E) as (A & B & _). exact (plan_ok_frame _ _ A B L).
  - destruct (touched GSess T) eqn:E; [exact (HS eq_refl)|exact (sess_ok_frame _ _ (keeps_sessions _ _ _ Hk E) S)].
  - destruct (touched GSwap T) eqn:E; [exact (HW eq_refl)|]. unfold swap_records_ok. rewrite (keeps_swap _ _ _ Hk E). exact W.
  - destruct (touched GMint T) eqn:E; [exact (HI eq_refl)|]. unfold infl_records_ok. rewrite (keeps_inflations _ _ _ Hk E). exact I.
  - destruct (touched GPar T) eqn:E; [exact (HQ eq_refl)|]. rewrite (proj1 (keeps_par _ _ _ Hk E)). exact Q.
Qed.

Lemma rec_clear s : rec_inv s -> rec_inv (clear_events s).
Proof. intros [T D P N L S W I Q]. split; assumption. Qed.

(** * one transaction: the record each handler writes is valid *)

Lemma slen_pos x : Handlers.slen x <> 0 -> (0 <? Handlers.slen x) = true.
Proof. intros H. apply Z.ltb_lt. unfold Handlers.slen in *. pose proof (Nat2Z.is_nonneg (String.length x)). lia. Qed.

Ltac vb_split Hv := repeat rewrite andb_true_iff in Hv.

Lemma prov_ok_h_register s from name i w d ok s' :
  prov_records_ok s -> validate_basic (MProvRegister from name i w d ok) = true ->
  h_prov_register s from name i w d = Ok s' -> prov_records_ok s'.
Proof.
  intros P Hv H. destruct (h_prov_register_effect _ _ _ _ _ _ _ H) as (s1 & _ & Hf & ->).
  destruct (keeps_pv _ _ _ (fund_pool_keeps _ _ _ _ Hf) eq_refl) as [A B].
  apply (prov_ok_frame (s1 <| prov_inact ::= insert (ta_bytes from) (new_provider s from name i w d) |>)); [reflexivity..|].
  apply (prov_ok_set s1 (new_provider s from name i w d)); [exact (prov_ok_frame _ _ A B P)| |reflexivity].
  destruct (vb_prov_register _ _ _ _ _ _ Hv) as (Hf0 & Hn0 & Hn1 & Hi1 & Hw1 & _ & Hd1).
  unfold validate_provider. simpl. change Genesis.slen with Handlers.slen.
  rewrite (ta_valid_addr_ok _ _ Hf0), (slen_pos _ Hn0), Hn1, Hi1, Hw1, Hd1. reflexivity.
Qed.

Lemma validate_provider_status p st t :
  validate_provider p = true -> status_ai st = true -> validate_provider (p <| pv_status := st |> <| pv_status_at := t |>) = true.
Proof.
  unfold validate_provider. simpl. repeat rewrite andb_true_iff. intros [[[[[[A1 A2] A3] A4] A5] A6] _] Hs. repeat split; assumption.
Qed.

Lemma prov_ok_h_update s from name i w d ok st s' :
  prov_records_ok s -> validate_basic (MProvUpdate from name i w d ok st) = true ->
  h_prov_update s from name i w d st = Ok s' -> prov_records_ok s'.
Proof.
  intros P Hv H. destruct (vb_prov_update _ _ _ _ _ _ _ Hv) as (Hf & Hn1 & Hi1 & Hw1 & _ & Hd1 & Hst).
  unfold h_prov_update in H. destruct (get_provider s (ta_bytes from)) as [p|] eqn:Hg; [|discriminate].
  pose proof (prov_ok_get _ _ _ P Hg) as Hp.
  match type of H with (let '(s1, p2) := (if _ then (_, ?q) else _) in _) = _ => set (p1 := q) in H end.
  (* the updated details are valid; an empty name keeps the stored one *)
  assert (Hp1 : validate_provider p1 = true).
  { unfold validate_provider in Hp |- *. change Genesis.slen with Handlers.slen in Hp |- *. vb_split Hp.
    destruct Hp as [[[[[[A1 A2] A3] A4] A5] A6] A7]. unfold p1. simpl. rewrite A1, Hi1, Hw1, Hd1, A7. unfold is_empty.
    destruct (Z.eqb_spec (Handlers.slen name) 0) as [E|E]; [rewrite A2, A3; reflexivity|rewrite (slen_pos _ E), Hn1; reflexivity]. }
  match type of H with (let '(s1, p2) := ?e in _) = _ => destruct e as [s1 p2] eqn:Ep end.
  apply rbind_ok in H as (s2 & Hs & H). injection H as <-.
  apply (prov_ok_frame s2); [reflexivity..|].
  case_bool_decide as E0; [injection Ep as <- <-; exact (prov_ok_set _ _ _ P Hp1 Hs)|]. injection Ep as <- <-.
  eapply prov_ok_set; [| |exact Hs].
  - apply (prov_ok_sub s); [| |exact P]; repeat case_bool_decide; simpl; first [reflexivity | apply delete_subseteq].
  - apply validate_provider_status; [exact Hp1|]. destruct Hst as [->|[->| ->]]; [contradiction|reflexivity|reflexivity].
Qed.

Lemma node_ok_h_register s from gb hr url ok s' :
  now s <> tzero -> node_records_ok s -> validate_basic (MNodeRegister from gb hr url ok) = true ->
  h_node_register s from (default [] gb) (default [] hr) url = Ok s' -> node_records_ok s'.
Proof.
  intros Tz N Hv H n Hn. destruct (h_node_register_written _ _ _ _ _ _ H n Hn) as [->|Hn0]; [|exact (N _ Hn0)].
  destruct (vb_node_register _ _ _ _ _ Hv) as (Hf & Hgb & Hhr & Hu0 & Hu1 & _).
  unfold coins_field_ok in Hgb, Hhr. destruct gb as [gbl|]; [|discriminate]. destruct hr as [hrl|]; [|discriminate].
  unfold validate_node. simpl. change Genesis.slen with Handlers.slen.
  rewrite (ta_valid_addr_ok _ _ Hf), (coins_of_field_ok _ Hgb), (coins_of_field_ok _ Hhr), (slen_pos _ Hu0), Hu1. simpl.
  apply negb_true_iff, Z.eqb_neq. exact Tz.
Qed.

Lemma node_ok_h_update_details s from gb hr url ok s' :
  node_records_ok s -> validate_basic (MNodeUpdateDetails from gb hr url ok) = true ->
  h_node_update_details s from gb hr url = Ok s' -> node_records_ok s'.
Proof.
  intros N Hv H. destruct (h_node_update_details_written _ _ _ _ _ _ H) as (n0 & Hg & _ & _ & Hw).
  intros n Hn. destruct (Hw n Hn) as [->|Hn0]; [|exact (N _ Hn0)].
  pose proof (N _ (stored_node_get _ _ _ Hg)) as Hn0. destruct (vb_node_update_details _ _ _ _ _ Hv) as (Hf & Hgb & Hhr & Hu).
  unfold validate_node in Hn0 |- *. change Genesis.slen with Handlers.slen in Hn0 |- *. simpl. vb_split Hn0.
  destruct Hn0 as [[[[[[[A1 A2] A3] A4] A5] A6] A7] A8].
  assert (Hg2 : coins_nonempty_ok (match gb with Some l => coins_of l | None => nd_gb_prices n0 end) = true)
    by (destruct gb as [l|]; [apply coins_of_field_ok; exact Hgb|exact A2]).
  assert (Hh2 : coins_nonempty_ok (match hr with Some l => coins_of l | None => nd_hr_prices n0 end) = true)
    by (destruct hr as [l|]; [apply coins_of_field_ok; exact Hhr|exact A3]).
  rewrite Hg2, Hh2, A1, A6, A7, A8. unfold is_empty.
  destruct (Z.eqb_spec (Handlers.slen url) 0) as [E|E]; [rewrite A4, A5; reflexivity|].
  destruct Hu as [Hu|[Hu _]]; [contradiction|]. rewrite (slen_pos _ E), Hu. reflexivity.
Qed.

Lemma node_ok_h_update_status s from st s' :
  tzero < now s -> 0 < p_node_active (pars s) -> node_records_ok s -> validate_basic (MNodeUpdateStatus from st) = true ->
  h_node_update_status s from st = Ok s' -> node_records_ok s'.
Proof.
  intros Tz Qa N Hv H. destruct (h_node_update_status_effect _ _ _ _ H) as (n0 & Hg & Hst & ->).
  intros n Hn. destruct (node_status_state_written _ _ _ _ n Hn) as [->|Hn0]; [|exact (N _ Hn0)].
  pose proof (N _ (stored_node_get _ _ _ Hg)) as Hn0.
  unfold validate_node in Hn0 |- *. vb_split Hn0. destruct Hn0 as [[[[[[[A1 A2] A3] A4] A5] _] _] _].
  destruct Hst as [-> | ->]; simpl; rewrite A1, A2, A3, A4, A5; simpl.
  - destruct (Z.eqb_spec (now s + p_node_active (pars s)) tzero) as [E0|E0]; [lia|]. simpl. apply negb_true_iff, Z.eqb_neq. lia.
  - apply negb_true_iff, Z.eqb_neq. lia.
Qed.

Lemma dep_ok_h_node_subscribe s from nd g h dn s' :
  dep_records_ok s -> validate_basic (MNodeSubscribe from nd g h dn) = true ->
  h_node_subscribe s from nd g h dn = Ok s' -> dep_records_ok s'.
Proof.
  intros D Hv H. destruct (vb_node_subscribe _ _ _ _ _ Hv) as (Hf & _ & _ & _ & _ & _ & Hdn).
  destruct (h_node_subscribe_effect _ _ _ _ _ _ _ H) as (s1 & i & _ & _ & Hc & ->).
  destruct (create_sub_for_node_effect _ _ _ _ _ _ _ _ Hc) as (n & inact & dep & s0 & _ & _ & (Qg & Qh & Q0) & Hz & _ & ->).
  apply (dep_ok_frame s0); [reflexivity|]. apply (dep_ok_z_add s (ta_bytes from) dep); [exact D|exact (ta_valid_addr_ok _ _ Hf)| |exact Hz].
  (* the escrowed coin is the zero coin or a coin of the requested denomination *)
  intros Hne. destruct (Z.eq_dec h 0) as [Eh|Eh].
  - destruct (Z.eq_dec g 0) as [Eg|Eg]; [destruct (Q0 Eg Eh) as [_ ->]; contradiction|].
    destruct (Qg Eg) as (pr & a & _ & _ & _ & _ & Hd). destruct (Hd Eh) as [_ ->]. exact Hdn.
  - destruct (Qh Eh) as (pr & _ & _ & _ & _ & -> & _). exact Hdn.
Qed.

Lemma plan_ok_h_create s from du g prices s' :
  0 <= plan_count s -> now s <> tzero -> plan_records_ok s -> validate_basic (MPlanCreate from du g prices) = true ->
  h_plan_create s from du g (default [] prices) = Ok s' -> plan_records_ok s'.
Proof.
  intros Hc Tz L Hv H. destruct (vb_plan_create _ _ _ _ Hv) as (Hf & Hdu & Hgb & Hpr). apply Z.ltb_lt in Hdu, Hgb. unfold h_plan_create in H.
  apply rbind_ok in H as (u & _ & H). apply rbind_ok in H as (s1 & Hs & H). injection H as <-.
  apply (plan_ok_frame s1); [reflexivity..|]. eapply plan_ok_set; [| |exact Hs]; [exact L|].
  unfold coins_field_ok in Hpr. destruct prices as [pl|]; [|discriminate].
  unfold validate_plan. simpl. rewrite (ta_valid_addr_ok _ _ Hf), Hdu, Hgb, (coins_of_field_ok _ Hpr), !andb_true_r.
  apply andb_true_iff. split; apply negb_true_iff, Z.eqb_neq; [lia|exact Tz].
Qed.

Lemma plan_ok_h_update_status s from id st s' :
  now s <> tzero -> plan_records_ok s -> validate_basic (MPlanUpdateStatus from id st) = true ->
  h_plan_update_status s from id st = Ok s' -> plan_records_ok s'.
Proof.
  intros Tz L Hv H. destruct (vb_plan_update_status _ _ _ Hv) as (_ & _ & Hst).
  unfold h_plan_update_status in H. destruct (get_plan s id) as [p|] eqn:Hg; [|discriminate]. pose proof (plan_ok_get _ _ _ L Hg) as Hp.
  apply rbind_ok in H as (u & _ & H). apply rbind_ok in H as (s3 & Hs & H). injection H as <-.
  apply (plan_ok_frame s3); [reflexivity..|]. eapply plan_ok_set; [| |exact Hs].
  - apply (plan_ok_sub s); [| |exact L]; repeat case_bool_decide; simpl; first [reflexivity | apply delete_subseteq].
  - unfold validate_plan in Hp |- *. simpl. vb_split Hp. destruct Hp as [[[[[[A1 A2] A3] A4] A5] _] _]. rewrite A1, A2, A3, A4, A5. simpl.
    destruct Hst as [-> | ->]; simpl; apply negb_true_iff, Z.eqb_neq; exact Tz.
Qed.

Lemma sess_ok_h_start s from id nd s' :
  0 <= sess_count s -> tzero < now s -> 0 < p_sess_delay (pars s) -> sess_records_ok s ->
  validate_basic (MSessStart from id nd) = true -> h_sess_start s from id nd = Ok s' -> sess_records_ok s'.
Proof.
  intros Hc Tz Qs S Hv H. destruct (vb_sess_start _ _ _ Hv) as (Hf & Hid & Hnd).
  destruct (h_sess_start_effect _ _ _ _ _ H) as (sb & n & l & _ & _ & _ & _ & _ & _ & _ & _ & ->). unfold sess_records_ok. simpl.
  apply (map_Forall_insert_2 (fun _ x => validate_session x = true)); [|exact S].
  unfold validate_session. simpl. rewrite (ta_valid_addr_ok _ _ Hf), (ta_valid_addr_ok _ _ Hnd). simpl.
  repeat (apply andb_true_iff; split); try reflexivity; apply negb_true_iff, Z.eqb_neq; lia.
Qed.

Lemma sess_ok_h_update s from id up down du sl ok s' :
  tzero < now s -> 0 < p_sess_delay (pars s) -> sess_records_ok s ->
  validate_basic (MSessUpdate from id up down du sl ok) = true -> h_sess_update s from id up down du ok = Ok s' -> sess_records_ok s'.
Proof.
  intros Tz Qs S Hv H. destruct (vb_sess_update _ _ _ _ _ _ _ Hv) as (_ & _ & [Hu _] & [Hd0 _] & _ & Hdu). apply Z.leb_le in Hu, Hd0, Hdu.
  destruct (h_sess_update_effect _ _ _ _ _ _ _ _ H) as (x & Hx & _ & _ & _ & ->). unfold sess_records_ok. simpl.
  apply (map_Forall_insert_2 (fun _ x => validate_session x = true)); [|exact S].
  pose proof (S _ _ Hx) as Hxv. unfold validate_session in Hxv |- *. vb_split Hxv.
  destruct Hxv as [[[[[[[[[A1 A2] A3] A4] _] _] _] A8] A9] A10]. simpl. rewrite A1, A2, A3, A4, Hu, Hd0, Hdu, A9, A10. simpl.
  rewrite !andb_true_r. case_bool_decide; [|exact A8]. apply negb_true_iff, Z.eqb_neq. lia.
Qed.

Lemma swap_ok_h_swap s from hash receiver amount s' :
  p_swap_denom (pars s) <> 0%N -> swap_records_ok s -> validate_basic (MSwap from hash receiver amount) = true ->
  h_swap s from hash receiver amount = Ok s' -> swap_records_ok s'.
Proof.
  intros Qw W Hv H. destruct (vb_swap _ _ _ _ Hv) as (_ & Hrcv & Hlen & _). apply Z.eqb_eq in Hlen.
  destruct (h_swap_swaps _ _ _ _ _ _ H) as (q & _ & Hq & _ & E). unfold swap_records_ok. rewrite E.
  intros h w Hl. apply lookup_insert_Some in Hl as [[_ <-]|[_ Hl]]; [|exact (W _ _ Hl)].
  unfold validate_swap. simpl. rewrite Hlen, Hrcv. simpl. apply andb_true_iff.
  split; [apply Z.ltb_lt; exact Hq|apply negb_true_iff, N.eqb_neq; exact Qw].
Qed.

Lemma rec_handle s m s' : kinv s -> rec_inv s -> validate_basic m = true -> handle s m = Ok s' -> rec_inv s'.
Proof.
  intros Hi Hr Hv H. pose proof (handle_frame _ _ _ H) as Hk. pose proof Hr as [T D P N L S W I Q].
  destruct (params_valid_facts _ Q) as (Qa & Qs & Qw & _).
  assert (Tz : now s <> tzero) by lia.
  destruct m; simpl in H; (apply (rec_inv_keeps _ _ _ Hk eq_refl Hr); try discriminate; intros _).
  - exact (prov_ok_h_register _ _ _ _ _ _ _ _ P Hv H).
  - exact (prov_ok_h_update _ _ _ _ _ _ _ _ _ P Hv H).
  - exact (node_ok_h_register _ _ _ _ _ _ _ Tz N Hv H).
  - exact (node_ok_h_update_details _ _ _ _ _ _ _ N Hv H).
  - exact (node_ok_h_update_status _ _ _ _ T Qa N Hv H).
  - exact (dep_ok_h_node_subscribe _ _ _ _ _ _ _ D Hv H).
  - exact (plan_ok_h_create _ _ _ _ _ _ (k_lc _ (ki_plan _ Hi)) Tz L Hv H).
  - exact (plan_ok_h_update_status _ _ _ _ _ Tz L Hv H).
  - (* link, unlink: the plan records are not written *)
    unfold h_plan_link in H. destruct (get_plan s id); [|discriminate].
    apply rbind_ok in H as (u1 & _ & H). apply rbind_ok in H as (u2 & _ & H). injection H as <-. exact L.
  - unfold h_plan_unlink in H. destruct (get_plan s id); [|discriminate]. apply rbind_ok in H as (u1 & _ & H). injection H as <-. exact L.
  - (* cancel: sessions of the subscription become pending *)
    destruct (h_sub_cancel_effect _ _ _ _ H) as (sb & s2 & _ & _ & _ & Hp & Hd).
    exact (sess_ok_demote_tail _ _ _ _ Err _ Hp ltac:(discriminate) Hd T Qs S).
  - exact (sess_ok_h_start _ _ _ _ _ (k_ssc _ (ki_sess _ Hi)) T Qs S Hv H).
  - exact (sess_ok_h_update _ _ _ _ _ _ _ _ _ T Qs S Hv H).
  - destruct (h_sess_end_effect _ _ _ _ H) as (x & Hx & _ & _ & ->). intros i y Hl. simpl in Hl.
    apply lookup_insert_Some in Hl as [[_ <-]|[_ Hl]]; [apply validate_session_pending; [exact (S _ _ Hx)|lia|lia]|exact (S _ _ Hl)].
  - exact (swap_ok_h_swap _ _ _ _ _ _ Qw W Hv H).
Qed.

(** * block hooks *)

Lemma dep_ok_pay s a m t c1 c2 s2 s3 :
  z_dep_to_module s a m c1 = Ok s2 -> z_dep_to_account s2 a t c2 = Ok s3 -> dep_records_ok s -> dep_records_ok s3.
Proof. intros H2 H3 D. exact (dep_ok_z_to_account _ _ _ _ _ (dep_ok_z_to_module _ _ _ _ _ D H2) H3). Qed.

Lemma rec_payout_step s e s' : rec_inv s -> payout_step s e = Ok s' -> rec_inv s'.
Proof.
  intros Hr H. apply (rec_inv_keeps _ _ _ (payout_step_keeps _ _ _ H) eq_refl Hr); try discriminate. intros _.
  destruct (payout_step_effect _ _ _ H) as (po & fee & s2 & s3 & _ & _ & _ & H2 & H3 & ->).
  exact (dep_ok_pay _ _ _ _ _ _ _ _ H2 H3 (rv_dep _ Hr)).
Qed.

Lemma dep_ok_session_inactive_hook s sid acc nd b s' :
  dep_records_ok s -> session_inactive_hook s sid acc nd b = Ok s' -> dep_records_ok s'.
Proof.
  intros D H. destruct (session_inactive_hook_effect _ _ _ _ _ _ H) as (x & sb & _ & _ & _ & Hk).
  destruct (sb_kind sb) as [n g h dep|pid dn]; [|destruct Hk as (al & _ & ->); exact D].
  destruct (negb (h =? 0)); [subst; exact D|]. destruct Hk as (al & _ & Hk). cbv zeta in Hk. destruct (g =? 0); [subst; exact D|].
  destruct Hk as (prev & cur & fee & s2 & s3 & _ & _ & _ & _ & _ & _ & H2 & H3 & ->). exact (dep_ok_pay _ _ _ _ _ _ _ _ H2 H3 D).
Qed.

Lemma rec_session_expire_one s e s' : rec_inv s -> session_expire_one s e = Ok s' -> rec_inv s'.
Proof.
  intros Hr H. pose proof Hr as [T D P N L S W I Q]. destruct (params_valid_facts _ Q) as (_ & Qs & _).
  apply (rec_inv_keeps _ _ _ (session_expire_one_keeps _ _ _ H) eq_refl Hr); try discriminate; intros _;
    destruct (session_expire_one_effect _ _ _ H) as (x & Hx & [(_ & ->)|(_ & _ & s1 & Hh & ->)]).
  - exact D.
  - (* deposits: the settlement of a pending session *)
    apply (dep_ok_frame s1); [reflexivity|]. eapply dep_ok_session_inactive_hook; [|exact Hh]. exact D.
  - unfold sess_records_ok. simpl. apply (map_Forall_insert_2 (fun _ y => validate_session y = true)); [|exact S].
    apply validate_session_pending; [exact (S _ _ Hx)|lia|lia].
  - unfold sess_records_ok. simpl. rewrite (keeps_sessions _ _ _ (session_inactive_hook_keeps _ _ _ _ _ _ Hh) eq_refl).
    apply map_Forall_delete. exact S.
Qed.

Lemma dep_ok_refunded s sb a c s' : dep_records_ok s -> refunded s sb a c s' -> dep_records_ok s'.
Proof. intros D (_ & s0 & H0 & ->). exact (dep_ok_z_to_account _ _ _ _ _ D H0). Qed.

Lemma dep_ok_sub_refund s sb s' : dep_records_ok s -> sub_refund s sb = Ok s' -> dep_records_ok s'.
Proof.
  intros D H. apply sub_refund_effect in H. destruct (sb_kind sb) as [nd g h dep|pid dn]; [|subst; exact D].
  destruct H as (s1 & H1 & H2).
  assert (D1 : dep_records_ok s1).
  { destruct (g =? 0); [subst; exact D|]. destruct H1 as (al & paid & _ & _ & _ & H1). exact (dep_ok_refunded _ _ _ _ _ D H1). }
  destruct (h =? 0); [subst; exact D1|]. destruct H2 as (po & _ & H2). exact (dep_ok_refunded _ _ _ _ _ D1 H2).
Qed.

Lemma rec_sub_expire_one s e s' : rec_inv s -> sub_expire_one s e = Ok s' -> rec_inv s'.
Proof.
  intros Hr H. pose proof Hr as [T D P N L S W I Q]. destruct (params_valid_facts _ Q) as (_ & Qs & _).
  destruct (sub_expire_one_effect _ _ _ H) as (sb & _ & [(_ & s1 & H1 & Hd)|(_ & s1 & H1 & Hd)]);
    apply (rec_inv_keeps _ _ _ (sub_expire_one_keeps _ _ _ H) eq_refl Hr); try discriminate; intros _.
  - (* demotion: no deposit moves, the sessions of the subscription become pending *)
    apply (dep_ok_frame s); [|exact D]. rewrite (keeps_dep _ _ _ (detach_payout_keeps _ _ Panic _ ltac:(discriminate) Hd) eq_refl).
    exact (keeps_dep _ _ _ (sub_pending_hook_keeps _ _ _ H1) eq_refl).
  - exact (sess_ok_demote_tail _ _ _ _ Panic _ H1 ltac:(discriminate) Hd T Qs S).
  - (* removal: the refund *)
    apply (dep_ok_frame s1); [|eapply dep_ok_sub_refund; [|exact H1]; exact D].
    rewrite (keeps_dep _ _ _ (sub_delete_payout_keeps _ _ _ Hd) eq_refl). exact (keeps_dep _ _ _ (sub_cleanup_keeps s1 sb) eq_refl).
  - apply (sess_ok_frame s); [|exact S]. rewrite (keeps_sessions _ _ _ (sub_delete_payout_keeps _ _ _ Hd) eq_refl).
    change (sessions (sub_removed_state s1 sb)) with (sessions (sub_cleanup s1 sb)).
    rewrite (keeps_sessions _ _ _ (sub_cleanup_keeps s1 sb) eq_refl). exact (keeps_sessions _ _ _ (sub_refund_keeps _ _ _ H1) eq_refl).
Qed.

Lemma validate_node_prices n gb hr :
  validate_node n = true -> coins_nonempty_ok gb = true -> coins_nonempty_ok hr = true ->
  validate_node (n <| nd_gb_prices := gb |> <| nd_hr_prices := hr |>) = true.
Proof.
  unfold validate_node. simpl. repeat rewrite andb_true_iff. intros [[[[[[[A1 _] _] A4] A5] A6] A7] A8] Hg Hh. repeat split; auto.
Qed.

Lemma rec_node_end_block s s' : kinv s -> rec_inv s -> node_end_block s = Ok s' -> rec_inv s'.
Proof.
  intros Hi Hr H. pose proof Hr as [T D P N L S W I Q].
  destruct (params_valid_facts _ Q) as (_ & _ & _ & Q1 & Q2 & Q3 & Q4).
  apply (rec_inv_keeps _ _ _ (node_end_block_keeps _ _ H) eq_refl Hr); try discriminate. intros _.
  refine (node_end_block_nodes (fun n => validate_node n = true) s s' (ki_node _ Hi) H _ _ N); intros n Hn;
    pose proof Hn as Hn0; unfold validate_node in Hn0; vb_split Hn0; destruct Hn0 as [[[[[[[A1 A2] A3] A4] A5] _] _] _].
  - (* the sweep clamps valid prices to valid bounds *)
    unfold swept_node, swept. cbv zeta. apply validate_node_prices; [exact Hn| |];
      repeat match goal with |- context [if ?b then _ else _] => destruct b end;
      repeat first [apply clamp_min_ok | apply clamp_max_ok]; assumption.
  - unfold validate_node, expired. simpl. rewrite A1, A2, A3, A4, A5. simpl. apply negb_true_iff, Z.eqb_neq. clear -T. lia.
Qed.

(** * every operation *)

Theorem rec_step s o s' : kinv s -> rec_inv s -> wf_op_rec s o -> step s o = OOk s' -> rec_inv s'.
Proof.
  intros Hi Hr Hwf H. apply step_inv in H. pose proof (rec_clear _ Hr) as R0. destruct o.
  - apply begin_block_effect in H as (s1 & Hm & H). simpl in Hwf.
    assert (Rt : rec_inv (clear_events s <| now := t |>)).
    { destruct Hr as [T D P N L S W I Q]. split; try assumption. simpl. lia. }
    assert (R1 : rec_inv s1).
    { apply (rec_inv_keeps _ _ _ (mint_begin_block_keeps _ _ Hm) eq_refl Rt); try discriminate. intros _.
      intros t0 i Hl. exact (rv_infl _ Rt _ _ (lookup_weaken _ _ _ _ Hl (mint_loop_inflations _ _ _ Hm))). }
    eapply (rfold_inv rec_inv); [|exact R1|exact H]. intros a e b Ha Hs. eapply rec_payout_step; eauto.
  - destruct H as [Hv H]. exact (rec_handle _ _ _ (kinv_clear _ Hi) R0 Hv H).
  - destruct H as [Hgate ->].
    assert (F : keeps [GPar] (clear_events s) (fold_left apply_pchange cs (clear_events s))).
    { apply (fold_left_inv (fun y => keeps [GPar] (clear_events s) y)); [|apply keeps_refl].
      intros y c Hy. exact (keeps_trans _ _ _ _ Hy (apply_pchange_keeps y c)). }
    apply (rec_inv_keeps _ _ _ F eq_refl R0); try discriminate. intros _.
    rewrite pars_fold_clear. exact (gov_params_valid cs s Hgate (rv_pars _ Hr)).
  - destruct H as (x & H & ->). apply end_block_effect in H as (s1 & s2 & H1 & H2 & H3).
    pose proof (rec_node_end_block _ _ (kinv_clear _ Hi) R0 H1) as R1.
    assert (R2 : rec_inv s2) by (eapply (rfold_inv rec_inv); [|exact R1|exact H2]; intros a e b Ha Hs; eapply rec_session_expire_one; eauto).
    assert (R3 : rec_inv x) by (eapply (rfold_inv rec_inv); [|exact R2|exact H3]; intros a e b Ha Hs; eapply rec_sub_expire_one; eauto).
    destruct R3 as [T3 D3 P3 N3 L3 S3 W3 I3 Q3]. split; assumption.
Qed.
