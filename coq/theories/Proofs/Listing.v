(* C09, list level: every filtered listing of the model ([ids_for_*], [allocs_for],
   [all_nodes], the queue scans) is exactly the set of entries of its index, without
   duplicates and in strictly ascending order; and when an index is the image of a
   primary map under an attribute, the records a filtered query returns are exactly
   the full listing filtered by that attribute (none missing, none extra, none twice,
   no failing look-up).  The state invariants that make the hypotheses true are
   [idx_sess] (IndexSess.v), [idx_node] (IndexNode.v), [idx_sub]/[idx_plan] (InvDefs.v)
   and [kinv] (KeysInv.v); the instances follow the generic part, store by store. *)
From Hub Require Import Base.Prelude Base.Arith Model.Types Model.Keeper Model.Handlers Model.Hooks Model.Step.
From Hub Require Import Proofs.Tactics Proofs.Sorting Proofs.Determinism Proofs.Frames Proofs.KeysInv.
From Hub Require Import Proofs.IndexSess Proofs.IndexNode Proofs.InvDefs.

(** * strictly ascending lists of integers *)

Lemma cmp_le_Z_le (x y : Z) : cmp_le Z.compare x y <-> x <= y.
Proof. unfold cmp_le. rewrite Z.compare_le_iff. reflexivity. Qed.

Lemma StronglySorted_impl {A} (R1 R2 : relation A) (l : list A) :
  (forall x y, R1 x y -> R2 x y) -> StronglySorted R1 l -> StronglySorted R2 l.
Proof.
  intros Himp Hs. induction Hs as [|x l Hs IH Hall]; constructor; [exact IH|].
  eapply Forall_impl; [exact Hall|]. intros y Hy. apply Himp. exact Hy.
Qed.

Lemma sort_by_Z_sorted (l : list Z) : StronglySorted Z.le (sort_by Z.compare l).
Proof.
  apply (StronglySorted_impl (cmp_le Z.compare)); [intros x y; apply cmp_le_Z_le|].
  apply sort_by_sorted, _.
Qed.

(* sorted by a key without repeated keys = strictly sorted by that key *)
Lemma sorted_nodup_strict {A} (f : A -> Z) (l : list A) :
  StronglySorted (fun x y => f x <= f y) l -> NoDup (map f l) ->
  StronglySorted (fun x y => f x < f y) l.
Proof.
  intros Hs. induction Hs as [|x l Hs IH Hall]; intros Hnd; [constructor|].
  simpl in Hnd. apply NoDup_cons in Hnd as [Hx Hnd]. constructor; [apply IH; exact Hnd|].
  apply Forall_forall. intros y Hy. rewrite Forall_forall in Hall. specialize (Hall y Hy).
  assert (Hne : f y <> f x).
  { intros E. apply Hx. rewrite <- E. apply elem_of_list_fmap. exists y. auto. }
  lia.
Qed.

Lemma sorted_nodup_lt (l : list Z) : StronglySorted Z.le l -> NoDup l -> StronglySorted Z.lt l.
Proof.
  intros Hs Hnd. apply (sorted_nodup_strict (fun x => x) l).
  - exact Hs.
  - rewrite map_id. exact Hnd.
Qed.

#[local] Instance Z_le_antisym : AntiSymm (=) Z.le.
Proof. intros x y H1 H2. lia. Qed.

(* lists strictly ascending in a key and with the same elements are equal *)
Lemma strict_keyed_unique {A} (f : A -> Z) (l1 l2 : list A) :
  StronglySorted (fun x y => f x < f y) l1 -> StronglySorted (fun x y => f x < f y) l2 ->
  (forall x, x ∈ l1 <-> x ∈ l2) -> l1 = l2.
Proof.
  intros H1. revert l2. induction H1 as [|x l1 Hs IH Hall]; intros l2 H2 Hel.
  - destruct l2 as [|y l2]; [reflexivity|]. exfalso. assert (Hy : y ∈ []) by (apply Hel; left). inversion Hy.
  - destruct H2 as [|y l2 Hs2 Hall2]; [exfalso; assert (Hx : x ∈ []) by (apply Hel; left); inversion Hx|].
    rewrite Forall_forall in Hall, Hall2.
    assert (E : x = y).
    { assert (Hx : x ∈ y :: l2) by (apply Hel; left). assert (Hy : y ∈ x :: l1) by (apply Hel; left).
      apply elem_of_cons in Hx as [->|Hx]; [reflexivity|]. apply elem_of_cons in Hy as [->|Hy]; [reflexivity|].
      specialize (Hall _ Hy). specialize (Hall2 _ Hx). lia. }
    subst y. f_equal. apply IH; [exact Hs2|]. intros z. split; intros Hz.
    + assert (Hz' : z ∈ x :: l2) by (apply Hel; right; exact Hz).
      apply elem_of_cons in Hz' as [->|Hz']; [|exact Hz']. specialize (Hall _ Hz). lia.
    + assert (Hz' : z ∈ x :: l1) by (apply Hel; right; exact Hz).
      apply elem_of_cons in Hz' as [->|Hz']; [|exact Hz']. specialize (Hall2 _ Hz). lia.
Qed.

Theorem sorted_nodup_unique (l1 l2 : list Z) :
  StronglySorted Z.lt l1 -> StronglySorted Z.lt l2 -> (forall x, x ∈ l1 <-> x ∈ l2) -> l1 = l2.
Proof. apply (strict_keyed_unique (fun x => x)). Qed.

(** * ids below an index prefix: the generic form of [ids_for_z/a/aa/za] *)

Lemma bind_select {A B} (P : A -> Prop) `{forall x, Decision (P x)} (g : A -> B) (l : list A) :
  l ≫= (fun e => if bool_decide (P e) then [g e] else []) = map g (filter P l).
Proof.
  induction l as [|x l IH]; [reflexivity|].
  change ((x :: l) ≫= (fun e => if bool_decide (P e) then [g e] else []))
    with ((if bool_decide (P x) then [g x] else []) ++ (l ≫= fun e => if bool_decide (P e) then [g e] else [])).
  rewrite IH. destruct (decide (P x)) as [Hx|Hx].
  - rewrite bool_decide_eq_true_2 by exact Hx. rewrite filter_cons_True by exact Hx. reflexivity.
  - rewrite bool_decide_eq_false_2 by exact Hx. rewrite filter_cons_False by exact Hx. reflexivity.
Qed.

Section ids.
  Context {K : Type} `{Countable K}.
  Implicit Types (ix : gset (K * Z)) (k : K) (id : Z).

  Definition ids_gen ix k : list Z :=
    sort_by Z.compare (elements ix ≫= fun e => if bool_decide (e.1 = k) then [e.2] else []).

  Lemma ids_gen_filter ix k :
    ids_gen ix k = sort_by Z.compare (map snd (filter (fun e => e.1 = k) (elements ix))).
  Proof. unfold ids_gen. rewrite (bind_select (fun e : K * Z => e.1 = k) snd). reflexivity. Qed.

  Lemma elem_of_ids_gen ix k id : id ∈ ids_gen ix k <-> (k, id) ∈ ix.
  Proof.
    rewrite ids_gen_filter, elem_of_sort_by, elem_of_list_fmap. split.
    - intros ([k' id'] & -> & Hin). apply elem_of_list_filter in Hin as [Hk Hin]. simpl in Hk. subst k'.
      apply elem_of_elements in Hin. exact Hin.
    - intros Hin. exists (k, id). split; [reflexivity|]. apply elem_of_list_filter. split; [reflexivity|].
      apply elem_of_elements. exact Hin.
  Qed.

  Lemma NoDup_ids_gen ix k : NoDup (ids_gen ix k).
  Proof.
    rewrite ids_gen_filter. apply NoDup_sort_by. apply NoDup_fmap_2_strong.
    - intros [k1 i1] [k2 i2] H1 H2 E. apply elem_of_list_filter in H1 as [H1 _]. apply elem_of_list_filter in H2 as [H2 _].
      simpl in *. congruence.
    - apply NoDup_filter, NoDup_elements.
  Qed.

  Lemma ids_gen_sorted ix k : StronglySorted Z.le (ids_gen ix k).
  Proof. unfold ids_gen. apply sort_by_Z_sorted. Qed.

  Lemma ids_gen_strict ix k : StronglySorted Z.lt (ids_gen ix k).
  Proof. apply sorted_nodup_lt; [apply ids_gen_sorted|apply NoDup_ids_gen]. Qed.

  (* the listing is THE strictly ascending enumeration of the ids filed under [k] *)
  Theorem ids_gen_spec ix k (l : list Z) :
    l = ids_gen ix k <-> StronglySorted Z.lt l /\ forall id, id ∈ l <-> (k, id) ∈ ix.
  Proof.
    split.
    - intros ->. split; [apply ids_gen_strict|]. intros id. apply elem_of_ids_gen.
    - intros [Hs Hel]. apply sorted_nodup_unique; [exact Hs|apply ids_gen_strict|].
      intros id. rewrite Hel, elem_of_ids_gen. reflexivity.
  Qed.

  (* the contrapositive of [elem_of_ids_gen]: an identifier not filed under [k] is not listed under [k]
     (the first two hypotheses are not used; an entry under another key changes nothing) *)
  Lemma ids_gen_isolated ix k k' id : k <> k' -> (k', id) ∈ ix -> (k, id) ∉ ix -> id ∉ ids_gen ix k.
  Proof. intros _ _ Hn Hin. apply Hn. apply elem_of_ids_gen. exact Hin. Qed.

  (* the listing under [k] is a function of the entries whose key EQUALS [k] *)
  Lemma ids_gen_local ix ix' k :
    (forall id, (k, id) ∈ ix <-> (k, id) ∈ ix') -> ids_gen ix k = ids_gen ix' k.
  Proof.
    intros Hk. apply ids_gen_spec. split; [apply ids_gen_strict|].
    intros id. rewrite elem_of_ids_gen. apply Hk.
  Qed.

  Lemma ids_gen_length ix k : length (ids_gen ix k) = size (filter (fun e : K * Z => e.1 = k) ix).
  Proof.
    rewrite ids_gen_filter, (Permutation_length (sort_by_perm _ _)), map_length.
    unfold size, set_size. simpl. apply Permutation_length. apply NoDup_Permutation.
    - apply NoDup_filter, NoDup_elements.
    - apply NoDup_elements.
    - intros e. rewrite elem_of_list_filter, !elem_of_elements, elem_of_filter. reflexivity.
  Qed.
End ids.

(** * the four concrete listings of Model/Keeper.v are instances *)

Lemma ids_for_z_gen (ix : gset (Z * Z)) k : ids_for_z ix k = ids_gen ix k.
Proof. reflexivity. Qed.
Lemma ids_for_a_gen (ix : gset (addr * Z)) k : ids_for_a ix k = ids_gen ix k.
Proof. reflexivity. Qed.
Lemma ids_for_aa_gen (ix : gset (addr * addr * Z)) k1 k2 : ids_for_aa ix k1 k2 = ids_gen ix (k1, k2).
Proof. reflexivity. Qed.
Lemma ids_for_za_gen (ix : gset (Z * addr * Z)) k1 k2 : ids_for_za ix k1 k2 = ids_gen ix (k1, k2).
Proof. reflexivity. Qed.

(** ** by integer key (plan, subscription) *)

Lemma elem_of_ids_for_z (ix : gset (Z * Z)) k id : id ∈ ids_for_z ix k <-> (k, id) ∈ ix.
Proof. apply elem_of_ids_gen. Qed.
Lemma NoDup_ids_for_z (ix : gset (Z * Z)) k : NoDup (ids_for_z ix k).
Proof. apply NoDup_ids_gen. Qed.
Lemma ids_for_z_sorted (ix : gset (Z * Z)) k : StronglySorted Z.le (ids_for_z ix k).
Proof. apply ids_gen_sorted. Qed.
Lemma ids_for_z_strict (ix : gset (Z * Z)) k : StronglySorted Z.lt (ids_for_z ix k).
Proof. apply ids_gen_strict. Qed.
Theorem ids_for_z_spec (ix : gset (Z * Z)) k (l : list Z) :
  l = ids_for_z ix k <-> StronglySorted Z.lt l /\ forall id, id ∈ l <-> (k, id) ∈ ix.
Proof. apply ids_gen_spec. Qed.
Lemma ids_for_z_isolated (ix : gset (Z * Z)) k k' id : k <> k' -> (k', id) ∈ ix -> (k, id) ∉ ix -> id ∉ ids_for_z ix k.
Proof. apply ids_gen_isolated. Qed.

(** ** by address (account, node, provider) *)

Lemma elem_of_ids_for_a (ix : gset (addr * Z)) a id : id ∈ ids_for_a ix a <-> (a, id) ∈ ix.
Proof. apply elem_of_ids_gen. Qed.
Lemma NoDup_ids_for_a (ix : gset (addr * Z)) a : NoDup (ids_for_a ix a).
Proof. apply NoDup_ids_gen. Qed.
Lemma ids_for_a_sorted (ix : gset (addr * Z)) a : StronglySorted Z.le (ids_for_a ix a).
Proof. apply ids_gen_sorted. Qed.
Lemma ids_for_a_strict (ix : gset (addr * Z)) a : StronglySorted Z.lt (ids_for_a ix a).
Proof. apply ids_gen_strict. Qed.
(* an identifier not filed under [a] is not listed under [a], whatever is filed under another address [b] --
   in particular one whose bytes extend or truncate those of [a]; this is [elem_of_ids_for_a] read backwards *)
Lemma ids_for_a_isolated (ix : gset (addr * Z)) a b id :
  a <> b -> (b, id) ∈ ix -> (a, id) ∉ ix -> id ∉ ids_for_a ix a.
Proof. apply ids_gen_isolated. Qed.

(* adding or removing entries under other addresses does not change the listing of [a] *)
Lemma ids_for_a_insert_other (ix : gset (addr * Z)) a b id :
  a <> b -> ids_for_a (ix ∪ {[ (b, id) ]}) a = ids_for_a ix a.
Proof. intros Hne. apply ids_gen_local. intros i. set_solver. Qed.

Lemma ids_for_a_delete_other (ix : gset (addr * Z)) a b id :
  a <> b -> ids_for_a (ix ∖ {[ (b, id) ]}) a = ids_for_a ix a.
Proof. intros Hne. apply ids_gen_local. intros i. set_solver. Qed.

(** ** by (account, node) *)

Lemma elem_of_ids_for_aa (ix : gset (addr * addr * Z)) a b id : id ∈ ids_for_aa ix a b <-> (a, b, id) ∈ ix.
Proof. apply (elem_of_ids_gen ix (a, b)). Qed.
Lemma NoDup_ids_for_aa (ix : gset (addr * addr * Z)) a b : NoDup (ids_for_aa ix a b).
Proof. apply (NoDup_ids_gen ix (a, b)). Qed.
Lemma ids_for_aa_sorted (ix : gset (addr * addr * Z)) a b : StronglySorted Z.le (ids_for_aa ix a b).
Proof. apply (ids_gen_sorted ix (a, b)). Qed.
Lemma ids_for_aa_strict (ix : gset (addr * addr * Z)) a b : StronglySorted Z.lt (ids_for_aa ix a b).
Proof. apply (ids_gen_strict ix (a, b)). Qed.
Theorem ids_for_aa_spec (ix : gset (addr * addr * Z)) a b (l : list Z) :
  l = ids_for_aa ix a b <-> StronglySorted Z.lt l /\ forall id, id ∈ l <-> (a, b, id) ∈ ix.
Proof. apply (ids_gen_spec ix (a, b)). Qed.
Lemma ids_for_aa_isolated (ix : gset (addr * addr * Z)) a b a' b' id :
  (a, b) <> (a', b') -> (a', b', id) ∈ ix -> (a, b, id) ∉ ix -> id ∉ ids_for_aa ix a b.
Proof. apply (ids_gen_isolated ix (a, b) (a', b')). Qed.

(** ** by (subscription, account) *)

Lemma elem_of_ids_for_za (ix : gset (Z * addr * Z)) k a id : id ∈ ids_for_za ix k a <-> (k, a, id) ∈ ix.
Proof. apply (elem_of_ids_gen ix (k, a)). Qed.
Lemma NoDup_ids_for_za (ix : gset (Z * addr * Z)) k a : NoDup (ids_for_za ix k a).
Proof. apply (NoDup_ids_gen ix (k, a)). Qed.
Lemma ids_for_za_sorted (ix : gset (Z * addr * Z)) k a : StronglySorted Z.le (ids_for_za ix k a).
Proof. apply (ids_gen_sorted ix (k, a)). Qed.
Lemma ids_for_za_strict (ix : gset (Z * addr * Z)) k a : StronglySorted Z.lt (ids_for_za ix k a).
Proof. apply (ids_gen_strict ix (k, a)). Qed.
Theorem ids_for_za_spec (ix : gset (Z * addr * Z)) k a (l : list Z) :
  l = ids_for_za ix k a <-> StronglySorted Z.lt l /\ forall id, id ∈ l <-> (k, a, id) ∈ ix.
Proof. apply (ids_gen_spec ix (k, a)). Qed.
Lemma ids_for_za_isolated (ix : gset (Z * addr * Z)) k a k' a' id :
  (k, a) <> (k', a') -> (k', a', id) ∈ ix -> (k, a, id) ∉ ix -> id ∉ ids_for_za ix k a.
Proof. apply (ids_gen_isolated ix (k, a) (k', a')). Qed.

(* the latest entry (reverse iteration, first hit) is the largest id of the listing *)
Lemma last_ids_max (l : list Z) x : StronglySorted Z.le l -> last l = Some x -> forall y, y ∈ l -> y <= x.
Proof.
  intros Hs. induction Hs as [|z l Hs IH Hall]; [discriminate|].
  destruct l as [|z' l'].
  - simpl. intros [= <-] y Hy. apply elem_of_list_singleton in Hy. lia.
  - intros Hl y Hy. change (last (z' :: l') = Some x) in Hl.
    apply elem_of_cons in Hy as [->|Hy]; [|apply IH; assumption].
    rewrite Forall_forall in Hall. etransitivity; [apply (Hall z'); left|]. apply IH; [exact Hl|left].
Qed.

(** * allocations of one subscription *)

(* the (key, record) pairs behind [allocs_for], in key order *)
Definition alloc_entries (s : state) (id : Z) : list (Z * addr * allocation) :=
  sort_by (fun x y => cmp_za x.1 y.1) (filter (fun kv => kv.1.1 = id) (map_to_list (allocs s))).

Lemma allocs_for_entries s id : allocs_for s id = map snd (alloc_entries s id).
Proof. reflexivity. Qed.

Lemma elem_of_alloc_entries s id k al : (k, al) ∈ alloc_entries s id <-> k.1 = id /\ allocs s !! k = Some al.
Proof.
  unfold alloc_entries. rewrite elem_of_sort_by, elem_of_list_filter, elem_of_map_to_list. reflexivity.
Qed.

Lemma elem_of_allocs_for s id al : al ∈ allocs_for s id <-> exists a, allocs s !! (id, a) = Some al.
Proof.
  rewrite allocs_for_entries, elem_of_list_fmap. split.
  - intros ([[i a] al'] & -> & Hin). apply elem_of_alloc_entries in Hin as [Hi Hal]. simpl in Hi. subst i. eauto.
  - intros [a Hal]. exists ((id, a), al). split; [reflexivity|]. apply elem_of_alloc_entries. auto.
Qed.

(* no key twice *)
Lemma NoDup_alloc_keys s id : NoDup (map fst (alloc_entries s id)).
Proof.
  unfold alloc_entries. rewrite (sort_by_perm _ _).
  assert (G : forall l : list (Z * addr * allocation), NoDup (map fst l) -> NoDup (map fst (filter (fun kv => kv.1.1 = id) l))).
  { induction l as [|x l IH]; intros Hnd; [constructor|]. simpl in Hnd. apply NoDup_cons in Hnd as [Hx Hnd].
    destruct (decide (x.1.1 = id)) as [E|E].
    - rewrite filter_cons_True by exact E. simpl. apply NoDup_cons. split; [|apply IH; exact Hnd].
      intros Hin. apply Hx. apply elem_of_list_fmap in Hin as (y & Ey & Hy). apply elem_of_list_filter in Hy as [_ Hy].
      apply elem_of_list_fmap. eauto.
    - rewrite filter_cons_False by exact E. apply IH. exact Hnd. }
  apply G. apply NoDup_fst_map_to_list.
Qed.

Lemma NoDup_alloc_entries s id : NoDup (alloc_entries s id).
Proof. eapply NoDup_fmap_1. apply NoDup_alloc_keys. Qed.

Lemma alloc_entries_sorted s id : StronglySorted (fun x y => cmp_le cmp_za x.1 y.1) (alloc_entries s id).
Proof.
  unfold alloc_entries.
  assert (GC : GoodCmp (fun x y : Z * addr * allocation => cmp_za x.1 y.1)).
  { split.
    - intros x y. apply (gc_total (c := cmp_za)).
    - intros x y z. apply (gc_trans (c := cmp_za)). }
  apply (sort_by_sorted _ (GoodCmp0 := GC)).
Qed.

Lemma length_allocs_for s id : length (allocs_for s id) = size (filter (fun kv : Z * addr * allocation => kv.1.1 = id) (allocs s)).
Proof.
  rewrite allocs_for_entries, map_length. unfold alloc_entries. rewrite (Permutation_length (sort_by_perm _ _)).
  unfold size, map_size. apply Permutation_length. apply NoDup_Permutation.
  - apply NoDup_filter, NoDup_map_to_list.
  - apply NoDup_map_to_list.
  - intros [k al]. rewrite elem_of_list_filter, !elem_of_map_to_list, map_filter_lookup_Some. tauto.
Qed.

(* under key/record agreement every returned allocation belongs to the subscription asked for,
   is stored under its own (subscription, account) key, and no account appears twice *)
Lemma allocs_for_id s id al : kinv_sub s -> al ∈ allocs_for s id -> al_id al = id.
Proof.
  intros Hk Hin. apply elem_of_allocs_for in Hin as [a Hal]. destruct (k_al _ Hk _ _ Hal) as (E & _). exact E.
Qed.

Lemma allocs_for_key s id al : kinv_sub s -> al ∈ allocs_for s id <-> al_id al = id /\ allocs s !! (id, al_addr al) = Some al.
Proof.
  intros Hk. rewrite elem_of_allocs_for. split.
  - intros [a Hal]. destruct (k_al _ Hk _ _ Hal) as (E1 & E2 & _). simpl in E1, E2. subst a. auto.
  - intros [_ Hal]. eauto.
Qed.

Lemma alloc_entries_addr s id : kinv_sub s -> map al_addr (allocs_for s id) = map (fun kv => kv.1.2) (alloc_entries s id).
Proof.
  intros Hk. rewrite allocs_for_entries, map_map. apply map_ext_in. intros [[i a] al] Hin.
  apply elem_of_list_In, elem_of_alloc_entries in Hin as [_ Hal]. destruct (k_al _ Hk _ _ Hal) as (_ & E2 & _). exact E2.
Qed.

Lemma NoDup_allocs_for_addr s id : kinv_sub s -> NoDup (map al_addr (allocs_for s id)).
Proof.
  intros Hk. rewrite (alloc_entries_addr s id Hk).
  pose proof (NoDup_alloc_keys s id) as Hnd.
  assert (E : map (fun kv : Z * addr * allocation => kv.1.2) (alloc_entries s id) = map snd (map fst (alloc_entries s id))).
  { rewrite map_map. reflexivity. }
  rewrite E. apply NoDup_fmap_2_strong; [|exact Hnd].
  intros [i1 a1] [i2 a2] H1 H2 Ea. simpl in Ea. subst a2.
  apply elem_of_list_fmap in H1 as ([k1 al1] & E1 & H1). apply elem_of_list_fmap in H2 as ([k2 al2] & E2 & H2).
  simpl in E1, E2. subst k1 k2. apply elem_of_alloc_entries in H1 as [H1 _]. apply elem_of_alloc_entries in H2 as [H2 _].
  simpl in H1, H2. congruence.
Qed.

Lemma NoDup_allocs_for s id : kinv_sub s -> NoDup (allocs_for s id).
Proof. intros Hk. eapply NoDup_fmap_1. apply NoDup_allocs_for_addr. exact Hk. Qed.

(** * all nodes (active partition, then inactive partition) *)

Lemma elem_of_all_nodes_iff s n :
  kinv_node s -> n ∈ all_nodes s <-> node_act s !! nd_addr n = Some n \/ node_inact s !! nd_addr n = Some n.
Proof.
  intros Hk. split.
  - intros Hin. destruct (elem_of_all_nodes _ _ Hk Hin) as [[H1 _]|[H1 _]]; auto.
  - unfold all_nodes. rewrite elem_of_app, !elem_of_list_fmap. intros [Hn|Hn]; [left|right];
      (exists (nd_addr n, n); split; [reflexivity|]; apply elem_of_sort_by, elem_of_map_to_list; exact Hn).
Qed.

Lemma elem_of_all_nodes_get s n : kinv_node s -> n ∈ all_nodes s <-> get_node s (nd_addr n) = Some n.
Proof.
  intros Hk. rewrite (elem_of_all_nodes_iff s n Hk). split.
  - intros [Ha|Hi]; unfold get_node; [rewrite Ha; reflexivity|].
    rewrite (dp_sym_none _ _ _ _ (k_nd _ Hk) Hi). exact Hi.
  - intros Hg. apply get_node_cases in Hg. tauto.
Qed.

Lemma NoDup_map_values {K V} `{Countable K} (key : V -> K) (c : K * V -> K * V -> comparison) (m : gmap K V) :
  (forall k v, m !! k = Some v -> key v = k) -> NoDup (map snd (sort_by c (map_to_list m))).
Proof.
  intros Hkey. apply NoDup_fmap_2_strong; [|apply NoDup_sort_by, NoDup_map_to_list].
  intros [k1 v1] [k2 v2] H1 H2 E. simpl in E. subst v2.
  apply elem_of_sort_by, elem_of_map_to_list in H1. apply elem_of_sort_by, elem_of_map_to_list in H2.
  rewrite <- (Hkey _ _ H1), <- (Hkey _ _ H2). reflexivity.
Qed.

Lemma NoDup_all_nodes s : kinv_node s -> NoDup (all_nodes s).
Proof.
  intros Hk. unfold all_nodes. apply NoDup_app. split; [|split].
  - apply (NoDup_map_values nd_addr). intros a n Hn. apply (k_na _ Hk _ _ Hn).
  - intros n H1 H2. apply elem_of_list_fmap in H1 as ([a1 n1] & -> & H1). apply elem_of_list_fmap in H2 as ([a2 n2] & E & H2).
    apply elem_of_sort_by, elem_of_map_to_list in H1. apply elem_of_sort_by, elem_of_map_to_list in H2. simpl in E. subst n2.
    destruct (k_na _ Hk _ _ H1) as [_ E1]. destruct (k_ni _ Hk _ _ H2) as [_ E2]. congruence.
  - apply (NoDup_map_values nd_addr). intros a n Hn. apply (k_ni _ Hk _ _ Hn).
Qed.

Lemma length_all_nodes s : length (all_nodes s) = (size (node_act s) + size (node_inact s))%nat.
Proof.
  unfold all_nodes. rewrite app_length, !map_length, !(Permutation_length (sort_by_perm _ _)). reflexivity.
Qed.

(** * filtered listing = filter of the full listing *)

(* the unfiltered listing of a store keyed by identifier: all records in key order *)
Definition entries {V} (m : gmap Z V) : list (Z * V) := sort_by (fun x y => Z.compare x.1 y.1) (map_to_list m).
Definition listing {V} (m : gmap Z V) : list V := map snd (entries m).

Lemma elem_of_entries {V} (m : gmap Z V) id v : (id, v) ∈ entries m <-> m !! id = Some v.
Proof. unfold entries. rewrite elem_of_sort_by, elem_of_map_to_list. reflexivity. Qed.

Lemma elem_of_listing {V} (m : gmap Z V) v : v ∈ listing m <-> exists id, m !! id = Some v.
Proof.
  unfold listing. rewrite elem_of_list_fmap. split.
  - intros ([id v'] & -> & Hin). apply elem_of_entries in Hin. eauto.
  - intros [id Hv]. exists (id, v). split; [reflexivity|]. apply elem_of_entries. exact Hv.
Qed.

Lemma entries_keys_NoDup {V} (m : gmap Z V) : NoDup (map fst (entries m)).
Proof. unfold entries. rewrite (sort_by_perm _ _). apply NoDup_fst_map_to_list. Qed.

Lemma entries_strict {V} (m : gmap Z V) : StronglySorted (fun x y : Z * V => x.1 < y.1) (entries m).
Proof.
  apply (sorted_nodup_strict fst); [|apply entries_keys_NoDup].
  apply (StronglySorted_impl (cmp_le (fun x y : Z * V => Z.compare x.1 y.1))).
  - intros x y Hxy. apply cmp_le_Z_le in Hxy. exact Hxy.
  - unfold entries. apply (sort_by_sorted _ (GoodCmp0 := good_cmp_proj fst)).
Qed.

Lemma length_listing {V} (m : gmap Z V) : length (listing m) = size m.
Proof. unfold listing, entries. rewrite map_length, (Permutation_length (sort_by_perm _ _)). reflexivity. Qed.

Lemma filter_map_snd {A B} (Q : B -> Prop) `{forall y, Decision (Q y)} (l : list (A * B)) :
  map snd (filter (fun e => Q e.2) l) = filter Q (map snd l).
Proof.
  induction l as [|x l IH]; [reflexivity|]. simpl. destruct (decide (Q x.2)) as [Hx|Hx].
  - rewrite !filter_cons_True by exact Hx. simpl. rewrite IH. reflexivity.
  - rewrite !filter_cons_False by exact Hx. exact IH.
Qed.

Lemma omap_lookup_entries {V} (m : gmap Z V) (l : list (Z * V)) :
  (forall e, e ∈ l -> m !! e.1 = Some e.2) -> omap (fun id => m !! id) (map fst l) = map snd l.
Proof.
  induction l as [|x l IH]; intros Hl; [reflexivity|].
  change (omap (fun id => m !! id) (map fst (x :: l)))
    with (match m !! x.1 with Some y => y :: omap (fun id => m !! id) (map fst l) | None => omap (fun id => m !! id) (map fst l) end).
  rewrite (Hl x) by left. rewrite IH; [reflexivity|]. intros e He. apply Hl. right. exact He.
Qed.

(* none twice, at the level of records: a record determines its identifier *)
Lemma omap_lookup_NoDup {V} (m : gmap Z V) (key : V -> Z) (ids : list Z) :
  (forall id v, m !! id = Some v -> key v = id) -> NoDup ids -> NoDup (omap (fun id => m !! id) ids).
Proof.
  intros Hkey Hnd. induction Hnd as [|x l Hx Hnd IH]; [constructor|].
  change (omap (fun id => m !! id) (x :: l))
    with (match m !! x with Some y => y :: omap (fun id => m !! id) l | None => omap (fun id => m !! id) l end).
  destruct (m !! x) as [v|] eqn:Hv; [|exact IH]. constructor; [|exact IH].
  intros Hin. apply elem_of_list_omap in Hin as (y & Hy & Hvy). apply Hx.
  rewrite <- (Hkey _ _ Hv), (Hkey _ _ Hvy). exact Hy.
Qed.

(* an index [ix] files the records of [m] under the keys related to them by [P]
   ([P k id v]: record [v], stored under [id], has attribute [k]) *)
Definition indexes {V K} `{Countable K} (ix : gset (K * Z)) (m : gmap Z V) (P : K -> Z -> V -> Prop) : Prop :=
  forall k id, (k, id) ∈ ix <-> exists v, m !! id = Some v /\ P k id v.

Section filtered.
  Context {V K : Type} `{Countable K}.
  Context (m : gmap Z V) (P : K -> Z -> V -> Prop) {Pdec : forall k id v, Decision (P k id v)} (ix : gset (K * Z)).
  Hypothesis Hix : indexes ix m P.

  (* the matching entries of the full listing *)
  Definition matching (k : K) : list (Z * V) := filter (fun e => P k e.1 e.2) (entries m).

  Lemma matching_lookup k e : e ∈ matching k -> m !! e.1 = Some e.2.
  Proof. destruct e as [id v]. intros Hin. apply elem_of_list_filter in Hin as [_ Hin]. apply elem_of_entries in Hin. exact Hin. Qed.

  (* the ids a filtered query visits are the keys of the matching entries of the full listing, in order *)
  Lemma filtered_ids k : ids_gen ix k = map fst (matching k).
  Proof.
    symmetry. apply ids_gen_spec. split.
    - apply (StronglySorted_fmap fst (fun x y : Z * V => x.1 < y.1)); [auto|].
      apply StronglySorted_filter, entries_strict.
    - intros id. rewrite (Hix k id), elem_of_list_fmap. split.
      + intros ([id' v] & -> & Hin). apply elem_of_list_filter in Hin as [Hp Hin]. apply elem_of_entries in Hin. eauto.
      + intros (v & Hv & Hp). exists (id, v). split; [reflexivity|]. apply elem_of_list_filter.
        split; [exact Hp|apply elem_of_entries; exact Hv].
  Qed.

  (* none missing, none extra, same order *)
  Theorem filtered_entries k : omap (fun id => m !! id) (ids_gen ix k) = map snd (matching k).
  Proof. rewrite filtered_ids. apply omap_lookup_entries. apply matching_lookup. Qed.

  (* no dangling entry: every look-up the query performs succeeds, and the record has the attribute *)
  Theorem filtered_total k id : id ∈ ids_gen ix k -> exists v, m !! id = Some v /\ P k id v.
  Proof. intros Hin. apply elem_of_ids_gen in Hin. apply Hix. exact Hin. Qed.

  Corollary filtered_no_error k id : id ∈ ids_gen ix k -> is_Some (m !! id).
  Proof. intros Hin. destruct (filtered_total k id Hin) as (v & Hv & _). eauto. Qed.

  (* none missing *)
  Theorem filtered_complete k id v :
    m !! id = Some v -> P k id v -> id ∈ ids_gen ix k /\ v ∈ omap (fun id => m !! id) (ids_gen ix k).
  Proof.
    intros Hv Hp. assert (Hin : id ∈ ids_gen ix k) by (apply elem_of_ids_gen, Hix; eauto).
    split; [exact Hin|]. apply elem_of_list_omap. eauto.
  Qed.

  (* none extra *)
  Theorem filtered_sound k v :
    v ∈ omap (fun id => m !! id) (ids_gen ix k) -> exists id, m !! id = Some v /\ P k id v.
  Proof.
    intros Hin. apply elem_of_list_omap in Hin as (id & Hid & Hv). exists id. split; [exact Hv|].
    destruct (filtered_total k id Hid) as (v' & Hv' & Hp). congruence.
  Qed.

  (* as many results as ids visited, as many as matching records in the store *)
  Theorem filtered_length k :
    length (omap (fun id => m !! id) (ids_gen ix k)) = length (ids_gen ix k) /\
    length (ids_gen ix k) = size (filter (fun e : Z * V => P k e.1 e.2) m).
  Proof.
    rewrite filtered_entries, filtered_ids, !map_length.
    split; [reflexivity|]. unfold matching, entries.
    unfold size, map_size. apply Permutation_length. apply NoDup_Permutation.
    - apply NoDup_filter, NoDup_sort_by, NoDup_map_to_list.
    - apply NoDup_map_to_list.
    - intros [id v]. rewrite elem_of_list_filter, elem_of_sort_by, !elem_of_map_to_list, map_filter_lookup_Some. tauto.
  Qed.

  (* none twice: the ids are pairwise distinct, and so are the records as soon as a record determines its id *)
  Theorem filtered_NoDup_ids k : NoDup (ids_gen ix k).
  Proof. apply NoDup_ids_gen. Qed.

  Theorem filtered_NoDup (key : V -> Z) k :
    (forall id v, m !! id = Some v -> key v = id) -> NoDup (omap (fun id => m !! id) (ids_gen ix k)).
  Proof using Hix Pdec.
    intros Hkey. apply (omap_lookup_NoDup m key _ Hkey), NoDup_ids_gen.
  Qed.

  (* the i-th record returned is the record of the i-th id *)
  Theorem filtered_pointwise k i id : ids_gen ix k !! i = Some id -> omap (fun id => m !! id) (ids_gen ix k) !! i = m !! id.
  Proof.
    rewrite filtered_entries, filtered_ids, !list_lookup_fmap.
    destruct (matching k !! i) as [[id' v]|] eqn:E; simpl; [|discriminate].
    intros [= ->]. apply elem_of_list_lookup_2, matching_lookup in E. auto.
  Qed.
End filtered.

(* the common case: the attribute is a property of the record alone *)
Section filtered_attr.
  Context {V K : Type} `{Countable K}.
  Context (m : gmap Z V) (Q : K -> V -> Prop) {Qdec : forall k v, Decision (Q k v)} (ix : gset (K * Z)).
  Hypothesis Hix : indexes ix m (fun k _ v => Q k v).

  Theorem filtered_listing k : omap (fun id => m !! id) (ids_gen ix k) = filter (Q k) (listing m).
  Proof.
    rewrite (filtered_entries m (fun k _ v => Q k v) ix Hix). unfold matching, listing.
    apply (filter_map_snd (Q k)).
  Qed.

  Theorem filtered_listing_length k : length (ids_gen ix k) = length (filter (Q k) (listing m)).
  Proof.
    rewrite <- filtered_listing. symmetry. apply (filtered_length m (fun k _ v => Q k v) ix Hix).
  Qed.
End filtered_attr.

(* everything a client can observe about one filtered query, in one record *)
Record query_ok {V} (m : gmap Z V) (Q : Z -> V -> Prop) {Qdec : forall id v, Decision (Q id v)} (ids : list Z) : Prop := {
  q_ids : forall id, id ∈ ids <-> exists v, m !! id = Some v /\ Q id v;
  q_strict : StronglySorted Z.lt ids;
  q_nodup : NoDup ids;
  q_no_error : forall id, id ∈ ids -> is_Some (m !! id);
  q_records : omap (fun id => m !! id) ids = map snd (filter (fun e => Q e.1 e.2) (entries m));
  q_length : length (omap (fun id => m !! id) ids) = length ids /\
             length ids = size (filter (fun e : Z * V => Q e.1 e.2) m) }.

Theorem indexes_query_ok {V K} `{Countable K} (m : gmap Z V) (P : K -> Z -> V -> Prop)
    {Pdec : forall k id v, Decision (P k id v)} (ix : gset (K * Z)) (k : K) :
  indexes ix m P -> query_ok m (P k) (ids_gen ix k).
Proof.
  intros Hix. split.
  - intros id. rewrite elem_of_ids_gen. apply Hix.
  - apply ids_gen_strict.
  - apply NoDup_ids_gen.
  - apply (filtered_no_error m P ix Hix).
  - apply (filtered_entries m P ix Hix).
  - apply (filtered_length m P ix Hix).
Qed.

(* when the attribute is a property of the record alone, the records are the full listing filtered by it *)
Lemma query_listing {V} (m : gmap Z V) (Q : V -> Prop) {Qdec : forall v, Decision (Q v)} (ids : list Z) :
  query_ok (Qdec := fun _ v => Qdec v) m (fun _ v => Q v) ids -> omap (fun id => m !! id) ids = filter Q (listing m).
Proof. intros [_ _ _ _ Hr _]. rewrite Hr. apply (filter_map_snd Q). Qed.

(** * instances: sessions *)

Section sessions.
  Context (s : state) (Hi : idx_sess s).

  Lemma sess_acc_indexes : indexes (sess_acc s) (sessions s) (fun a _ x => ss_addr x = a).
  Proof. intros a id. apply (ix_sacc _ Hi). Qed.
  Lemma sess_node_indexes : indexes (sess_node s) (sessions s) (fun a _ x => ss_node x = a).
  Proof. intros a id. apply (ix_snode _ Hi). Qed.
  Lemma sess_sub_indexes : indexes (sess_sub s) (sessions s) (fun k _ x => ss_sub x = k).
  Proof. intros k id. apply (ix_ssub _ Hi). Qed.
  Lemma sess_alloc_indexes : indexes (sess_alloc s) (sessions s) (fun k _ x => ss_sub x = k.1 /\ ss_addr x = k.2).
  Proof. exact (ix_salloc_pair s Hi). Qed.

  (* QuerySessionsForAccount / GetSessionsForAccount *)
  Theorem sessions_for_account_ok a :
    query_ok (Qdec := fun _ x => decide (ss_addr x = a)) (sessions s) (fun _ x => ss_addr x = a) (ids_for_a (sess_acc s) a).
  Proof. exact (indexes_query_ok (Pdec := fun k _ v => decide (ss_addr v = k)) (sessions s) _ (sess_acc s) a sess_acc_indexes). Qed.

  (* QuerySessionsForNode *)
  Theorem sessions_for_node_ok a :
    query_ok (Qdec := fun _ x => decide (ss_node x = a)) (sessions s) (fun _ x => ss_node x = a) (ids_for_a (sess_node s) a).
  Proof. exact (indexes_query_ok (Pdec := fun k _ v => decide (ss_node v = k)) (sessions s) _ (sess_node s) a sess_node_indexes). Qed.

  (* QuerySessionsForSubscription; also the iteration of SubscriptionInactivePendingHook *)
  Theorem sessions_for_subscription_ok k :
    query_ok (Qdec := fun _ x => decide (ss_sub x = k)) (sessions s) (fun _ x => ss_sub x = k) (ids_for_z (sess_sub s) k).
  Proof. exact (indexes_query_ok (Pdec := fun k _ v => decide (ss_sub v = k)) (sessions s) _ (sess_sub s) k sess_sub_indexes). Qed.

  (* QuerySessionsForAllocation; also GetLatestSessionForAllocation *)
  Theorem sessions_for_allocation_ok k a :
    query_ok (Qdec := fun _ x => decide (ss_sub x = k /\ ss_addr x = a)) (sessions s)
      (fun _ x => ss_sub x = k /\ ss_addr x = a) (ids_for_za (sess_alloc s) k a).
  Proof.
    exact (indexes_query_ok (Pdec := fun k _ v => decide (ss_sub v = k.1 /\ ss_addr v = k.2)) (sessions s) _ (sess_alloc s)
             (k, a) sess_alloc_indexes).
  Qed.

  (* the reverse iteration of GetLatestSessionForAllocation stops at the newest session of the allocation *)
  Theorem latest_session_for_alloc_ok k a :
    kinv_sess s ->
    match latest_session_for_alloc s k a with
    | Ok None => forall id x, sessions s !! id = Some x -> ~ (ss_sub x = k /\ ss_addr x = a)
    | Ok (Some x) => ss_sub x = k /\ ss_addr x = a /\ sessions s !! ss_id x = Some x /\
                     forall id y, sessions s !! id = Some y -> ss_sub y = k -> ss_addr y = a -> id <= ss_id x
    | Err => False
    | Panic => False
    end.
  Proof.
    intros Hk.
    unfold latest_session_for_alloc, last_opt.
    destruct (last (ids_for_za (sess_alloc s) k a)) as [sid|] eqn:El.
    - pose proof (last_Some_elem_of _ _ El) as Hin. apply elem_of_ids_for_za, (ix_salloc _ Hi) in Hin as (x & Hx & E1 & E2).
      rewrite Hx. destruct (k_ss _ Hk _ _ Hx) as (E0 & _). rewrite E0. repeat split; auto.
      intros id y Hy F1 F2. apply (last_ids_max _ _ (ids_for_za_sorted _ _ _) El).
      apply elem_of_ids_for_za, (ix_salloc _ Hi). eauto.
    - apply last_None in El. intros id x Hx [E1 E2].
      assert (Hin : id ∈ ids_for_za (sess_alloc s) k a) by (apply elem_of_ids_for_za, (ix_salloc _ Hi); eauto).
      rewrite El in Hin. inversion Hin.
  Qed.
End sessions.

Lemma sessions_query_NoDup s ids : kinv_sess s -> NoDup ids -> NoDup (omap (fun id => sessions s !! id) ids).
Proof. intros Hk. apply (omap_lookup_NoDup _ ss_id). intros id x Hx. apply (k_ss _ Hk _ _ Hx). Qed.
Lemma subs_query_NoDup s ids : kinv_sub s -> NoDup ids -> NoDup (omap (fun id => subs s !! id) ids).
Proof. intros Hk. apply (omap_lookup_NoDup _ sb_id). intros id x Hx. apply (k_sub _ Hk _ _ Hx). Qed.
Lemma payouts_query_NoDup s ids : kinv_sub s -> NoDup ids -> NoDup (omap (fun id => payouts s !! id) ids).
Proof. intros Hk. apply (omap_lookup_NoDup _ po_id). intros id x Hx. apply (k_po _ Hk _ _ Hx). Qed.

(** * instances: subscriptions and payouts *)

Definition sub_node_of (sb : subscription) : option addr :=
  match sb_kind sb with KNode n _ _ _ => Some n | KPlan _ _ => None end.
Definition sub_plan_of (sb : subscription) : option Z :=
  match sb_kind sb with KNode _ _ _ _ => None | KPlan p _ => Some p end.

Lemma sub_node_of_spec sb n : sub_node_of sb = Some n <-> exists g h d, sb_kind sb = KNode n g h d.
Proof.
  unfold sub_node_of. destruct (sb_kind sb) as [n' g h d|p d]; split.
  - intros [= ->]. eauto.
  - intros (g' & h' & d' & [= -> _ _ _]). reflexivity.
  - discriminate.
  - intros (g' & h' & d' & E). discriminate.
Qed.
Lemma sub_plan_of_spec sb p : sub_plan_of sb = Some p <-> exists d, sb_kind sb = KPlan p d.
Proof.
  unfold sub_plan_of. destruct (sb_kind sb) as [n' g h d|p' d]; split.
  - discriminate.
  - intros (d' & E). discriminate.
  - intros [= ->]. eauto.
  - intros (d' & [= -> _]). reflexivity.
Qed.

Section subscriptions.
  Context (s : state) (Hi : idx_sub s).

  Lemma sub_node_indexes : indexes (sub_node s) (subs s) (fun n _ sb => sub_node_of sb = Some n).
  Proof.
    intros n id. rewrite (ix_subnode _ Hi). split.
    - intros (sb & g & h & d & Hsb & Hk). exists sb. split; [exact Hsb|]. apply sub_node_of_spec. eauto.
    - intros (sb & Hsb & Hk). apply sub_node_of_spec in Hk as (g & h & d & Hk). eauto 6.
  Qed.
  Lemma sub_plan_indexes : indexes (sub_plan s) (subs s) (fun p _ sb => sub_plan_of sb = Some p).
  Proof.
    intros p id. rewrite (ix_subplan _ Hi). split.
    - intros (sb & d & Hsb & Hk). exists sb. split; [exact Hsb|]. apply sub_plan_of_spec. eauto.
    - intros (sb & Hsb & Hk). apply sub_plan_of_spec in Hk as (d & Hk). eauto.
  Qed.
  (* by account: the owner, or anybody holding an allocation of the subscription *)
  Lemma sub_acc_indexes :
    indexes (sub_acc s) (subs s) (fun a id sb => sb_addr sb = a \/ is_Some (allocs s !! (id, a))).
  Proof. intros a id. apply (ix_subacc _ Hi). Qed.
  Lemma pay_acc_indexes : indexes (pay_acc s) (payouts s) (fun a _ po => po_addr po = a).
  Proof. intros a id. apply (ix_payacc _ Hi). Qed.
  Lemma pay_node_indexes : indexes (pay_node s) (payouts s) (fun n _ po => po_node po = n).
  Proof. intros n id. apply (ix_paynode _ Hi). Qed.
  (* the lease index: payouts of ACTIVE subscriptions by (account, node) *)
  Lemma pay_acc_node_indexes :
    indexes (pay_acc_node s) (payouts s)
      (fun k id po => po_addr po = k.1 /\ po_node po = k.2 /\ sb_status <$> subs s !! id = Some SActive).
  Proof.
    intros [a n] id. rewrite (ix_payaccnode _ Hi). simpl. split.
    - intros (po & sb & Hpo & E1 & E2 & Hsb & Hst). exists po. rewrite Hsb. simpl. rewrite Hst. auto.
    - intros (po & Hpo & E1 & E2 & Hst). apply fmap_Some in Hst as (sb & Hsb & Hst). eauto 10.
  Qed.

  (* QuerySubscriptionsForNode *)
  Theorem subscriptions_for_node_ok n :
    query_ok (Qdec := fun _ sb => decide (sub_node_of sb = Some n)) (subs s) (fun _ sb => sub_node_of sb = Some n)
      (ids_for_a (sub_node s) n).
  Proof. exact (indexes_query_ok (Pdec := fun k _ v => decide (sub_node_of v = Some k)) (subs s) _ (sub_node s) n sub_node_indexes). Qed.

  (* QuerySubscriptionsForPlan *)
  Theorem subscriptions_for_plan_ok p :
    query_ok (Qdec := fun _ sb => decide (sub_plan_of sb = Some p)) (subs s) (fun _ sb => sub_plan_of sb = Some p)
      (ids_for_z (sub_plan s) p).
  Proof. exact (indexes_query_ok (Pdec := fun k _ v => decide (sub_plan_of v = Some k)) (subs s) _ (sub_plan s) p sub_plan_indexes). Qed.

  (* QuerySubscriptionsForAccount: the attribute depends on the allocation store as well *)
  Theorem subscriptions_for_account_ok a :
    query_ok (Qdec := fun id sb => decide (sb_addr sb = a \/ is_Some (allocs s !! (id, a)))) (subs s)
      (fun id sb => sb_addr sb = a \/ is_Some (allocs s !! (id, a))) (ids_for_a (sub_acc s) a).
  Proof.
    exact (indexes_query_ok (Pdec := fun k id v => decide (sb_addr v = k \/ is_Some (allocs s !! (id, k)))) (subs s) _ (sub_acc s) a
             sub_acc_indexes).
  Qed.

  (* QueryPayoutsForAccount *)
  Theorem payouts_for_account_ok a :
    query_ok (Qdec := fun _ po => decide (po_addr po = a)) (payouts s) (fun _ po => po_addr po = a) (ids_for_a (pay_acc s) a).
  Proof. exact (indexes_query_ok (Pdec := fun k _ v => decide (po_addr v = k)) (payouts s) _ (pay_acc s) a pay_acc_indexes). Qed.

  (* QueryPayoutsForNode *)
  Theorem payouts_for_node_ok n :
    query_ok (Qdec := fun _ po => decide (po_node po = n)) (payouts s) (fun _ po => po_node po = n) (ids_for_a (pay_node s) n).
  Proof. exact (indexes_query_ok (Pdec := fun k _ v => decide (po_node v = k)) (payouts s) _ (pay_node s) n pay_node_indexes). Qed.

  (* GetLatestPayoutForAccountByNode iterates the lease index *)
  Theorem payouts_for_account_by_node_ok a n :
    query_ok (Qdec := fun id po => decide (po_addr po = a /\ po_node po = n /\ sb_status <$> subs s !! id = Some SActive))
      (payouts s) (fun id po => po_addr po = a /\ po_node po = n /\ sb_status <$> subs s !! id = Some SActive)
      (ids_for_aa (pay_acc_node s) a n).
  Proof.
    exact (indexes_query_ok
             (Pdec := fun k id v => decide (po_addr v = k.1 /\ po_node v = k.2 /\ sb_status <$> subs s !! id = Some SActive))
             (payouts s) _ (pay_acc_node s) (a, n) pay_acc_node_indexes).
  Qed.

  (* allocations of a subscription: every one belongs to a live subscription *)
  Theorem allocs_for_live id al : al ∈ allocs_for s id -> is_Some (subs s !! id).
  Proof.
    intros Hin. apply elem_of_allocs_for in Hin as [a Hal]. destruct (st_alloc_sub _ Hi _ _ _ Hal) as (sb & Hsb & _). eauto.
  Qed.
End subscriptions.

(** * instances: plans (both status partitions) *)

Definition all_plans (s : state) : gmap Z plan := plan_act s ∪ plan_inact s.

Lemma all_plans_lookup s id : all_plans s !! id = get_plan s id.
Proof.
  unfold all_plans, get_plan. rewrite lookup_union.
  destruct (plan_act s !! id), (plan_inact s !! id); reflexivity.
Qed.

Lemma plans_query_NoDup s ids : kinv_plan s -> NoDup ids -> NoDup (omap (fun id => all_plans s !! id) ids).
Proof.
  intros Hk. apply (omap_lookup_NoDup _ pl_id). intros id p Hp. rewrite all_plans_lookup in Hp.
  apply (get_plan_kinv _ _ _ Hk Hp).
Qed.

Section plans.
  Context (s : state) (Hi : idx_plan s).

  Lemma plan_prov_indexes : indexes (plan_prov s) (all_plans s) (fun a _ p => pl_prov p = a).
  Proof. intros a id. rewrite (ix_planprov _ Hi). setoid_rewrite all_plans_lookup. reflexivity. Qed.

  (* QueryPlansForProvider *)
  Theorem plans_for_provider_ok a :
    query_ok (Qdec := fun _ p => decide (pl_prov p = a)) (all_plans s) (fun _ p => pl_prov p = a) (ids_for_a (plan_prov s) a).
  Proof. exact (indexes_query_ok (Pdec := fun k _ v => decide (pl_prov v = k)) (all_plans s) _ (plan_prov s) a plan_prov_indexes). Qed.

  Theorem plans_for_provider_no_error a id : id ∈ ids_for_a (plan_prov s) a -> is_Some (get_plan s id).
  Proof. intros Hin. apply elem_of_ids_for_a, (ix_planprov _ Hi) in Hin as (p & Hp & _). eauto. Qed.
End plans.

(** * queue liveness: every entry the block hooks will consume points at a live record with that deadline *)

Theorem sub_q_live s t id T :
  idx_sub s -> (t, id) ∈ due_z (sub_q s) T -> exists sb, subs s !! id = Some sb /\ sb_inactive_at sb = t /\ t <= T.
Proof.
  intros Hi Hin. apply elem_of_due_z in Hin as [Hin Hle]. apply (ix_subq _ Hi) in Hin as (sb & Hsb & Ht). eauto.
Qed.

Theorem sess_q_live s t id T :
  idx_sess s -> (t, id) ∈ due_z (sess_q s) T -> exists x, sessions s !! id = Some x /\ ss_inactive_at x = t /\ t <= T.
Proof.
  intros Hi Hin. apply elem_of_due_z in Hin as [Hin Hle]. apply (ix_sq _ Hi) in Hin as (x & Hx & Ht). eauto.
Qed.

Theorem pay_q_live s t id T :
  idx_sub s -> (t, id) ∈ due_z (pay_q s) T ->
  exists po sb, payouts s !! id = Some po /\ po_next_at po = t /\ 0 < po_hours po /\
                subs s !! id = Some sb /\ sb_status sb = SActive /\ t <= T.
Proof.
  intros Hi Hin. apply elem_of_due_z in Hin as [Hin Hle].
  apply (ix_payq _ Hi) in Hin as (po & sb & Hpo & Ht & Hh & Hsb & Hst). exists po, sb. auto 10.
Qed.

(* and conversely nothing due is missing from a scan *)
Theorem sub_q_complete s id sb T :
  idx_sub s -> subs s !! id = Some sb -> sb_inactive_at sb <= T -> (sb_inactive_at sb, id) ∈ due_z (sub_q s) T.
Proof. intros Hi Hsb Hle. apply elem_of_due_z. split; [apply (ix_subq _ Hi); eauto|exact Hle]. Qed.
Theorem sess_q_complete s id x T :
  idx_sess s -> sessions s !! id = Some x -> ss_inactive_at x <= T -> (ss_inactive_at x, id) ∈ due_z (sess_q s) T.
Proof. intros Hi Hx Hle. apply elem_of_due_z. split; [apply (ix_sq _ Hi); eauto|exact Hle]. Qed.
Theorem node_q_complete s a n T :
  idx_node s -> node_act s !! a = Some n -> nd_inactive_at n <= T -> (nd_inactive_at n, a) ∈ due_a (node_q s) T.
Proof. intros Hi Hn Hle. apply elem_of_due_a. split; [apply Hi, act_iat_spec; eauto|exact Hle]. Qed.

(* each record is queued once: a scan visits an identifier at most once *)
Lemma due_z_once (q : gset (time * Z)) T :
  (forall t1 t2 id, (t1, id) ∈ q -> (t2, id) ∈ q -> t1 = t2) -> NoDup (map snd (due_z q T)).
Proof.
  intros Hq. apply NoDup_fmap_2_strong; [|apply NoDup_due_z].
  intros [t1 i1] [t2 i2] H1 H2 E. simpl in E. subst i2.
  apply elem_of_due_z in H1 as [H1 _]. apply elem_of_due_z in H2 as [H2 _]. f_equal. exact (Hq _ _ _ H1 H2).
Qed.

Theorem sub_q_once s T : idx_sub s -> NoDup (map snd (due_z (sub_q s) T)).
Proof.
  intros Hi. apply due_z_once. intros t1 t2 id H1 H2.
  apply (ix_subq _ Hi) in H1 as (sb1 & Hs1 & <-). apply (ix_subq _ Hi) in H2 as (sb2 & Hs2 & <-). congruence.
Qed.
Theorem sess_q_once s T : idx_sess s -> NoDup (map snd (due_z (sess_q s) T)).
Proof.
  intros Hi. apply due_z_once. intros t1 t2 id H1 H2.
  apply (ix_sq _ Hi) in H1 as (x1 & Hs1 & <-). apply (ix_sq _ Hi) in H2 as (x2 & Hs2 & <-). congruence.
Qed.
Theorem node_q_once s T : idx_node s -> NoDup (map snd (due_a (node_q s) T)).
Proof.
  intros Hi. apply NoDup_fmap_2_strong; [|apply NoDup_due_a].
  intros [t1 i1] [t2 i2] H1 H2 E. simpl in E. subst i2.
  apply elem_of_due_a in H1 as [H1 _]. apply elem_of_due_a in H2 as [H2 _].
  apply Hi in H1. apply Hi in H2. congruence.
Qed.

(** * a removed record disappears from every listing at once *)

Theorem filtered_removed {V K} `{Countable K} (m : gmap Z V) (P : K -> Z -> V -> Prop) (ix : gset (K * Z)) id :
  indexes ix m P -> m !! id = None -> forall k, id ∉ ids_gen ix k.
Proof.
  intros Hix Hnone k Hin. apply elem_of_ids_gen, Hix in Hin as (v & Hv & _). congruence.
Qed.

Theorem session_removed s id :
  idx_sess s -> sessions s !! id = None ->
  (forall a, id ∉ ids_for_a (sess_acc s) a) /\ (forall a, id ∉ ids_for_a (sess_node s) a) /\
  (forall k, id ∉ ids_for_z (sess_sub s) k) /\ (forall k a, id ∉ ids_for_za (sess_alloc s) k a) /\
  (forall t T, (t, id) ∉ due_z (sess_q s) T).
Proof.
  intros Hi Hn. repeat split.
  - apply (filtered_removed _ _ _ _ (sess_acc_indexes s Hi) Hn).
  - apply (filtered_removed _ _ _ _ (sess_node_indexes s Hi) Hn).
  - apply (filtered_removed _ _ _ _ (sess_sub_indexes s Hi) Hn).
  - intros k a. apply (filtered_removed _ _ _ _ (sess_alloc_indexes s Hi) Hn (k, a)).
  - intros t T Hin. apply (sess_q_live s t id T Hi) in Hin as (x & Hx & _). congruence.
Qed.

Theorem subscription_removed s id :
  idx_sub s -> subs s !! id = None ->
  (forall a, id ∉ ids_for_a (sub_acc s) a) /\ (forall n, id ∉ ids_for_a (sub_node s) n) /\
  (forall p, id ∉ ids_for_z (sub_plan s) p) /\ (forall t T, (t, id) ∉ due_z (sub_q s) T) /\
  allocs_for s id = [] /\ payouts s !! id = None.
Proof.
  intros Hi Hn. repeat split.
  - apply (filtered_removed _ _ _ _ (sub_acc_indexes s Hi) Hn).
  - apply (filtered_removed _ _ _ _ (sub_node_indexes s Hi) Hn).
  - apply (filtered_removed _ _ _ _ (sub_plan_indexes s Hi) Hn).
  - intros t T Hin. apply (sub_q_live s t id T Hi) in Hin as (x & Hx & _). congruence.
  - destruct (allocs_for s id) as [|al l] eqn:E; [reflexivity|].
    assert (Hin : al ∈ allocs_for s id) by (rewrite E; left).
    apply (allocs_for_live s Hi) in Hin as [sb Hsb]. congruence.
  - destruct (payouts s !! id) as [po|] eqn:E; [|reflexivity].
    destruct (st_pay_sub _ Hi _ _ E) as (_ & sb & g & h & d & Hsb & _). congruence.
Qed.

Theorem payout_removed s id :
  idx_sub s -> payouts s !! id = None ->
  (forall a, id ∉ ids_for_a (pay_acc s) a) /\ (forall n, id ∉ ids_for_a (pay_node s) n) /\
  (forall a n, id ∉ ids_for_aa (pay_acc_node s) a n) /\ (forall t T, (t, id) ∉ due_z (pay_q s) T).
Proof.
  intros Hi Hn. repeat split.
  - apply (filtered_removed _ _ _ _ (pay_acc_indexes s Hi) Hn).
  - apply (filtered_removed _ _ _ _ (pay_node_indexes s Hi) Hn).
  - intros a n. apply (filtered_removed _ _ _ _ (pay_acc_node_indexes s Hi) Hn (a, n)).
  - intros t T Hin. apply (pay_q_live s t id T Hi) in Hin as (po & sb & Hpo & _). congruence.
Qed.

(** * listings by status: each status partition is the full listing filtered by status *)

(* a store whose records are exactly the records of [m'] with the attribute lists them in the same order *)
Lemma entries_filter {V} (m m' : gmap Z V) (Q : V -> Prop) {Qdec : forall v, Decision (Q v)} :
  (forall id v, m !! id = Some v <-> Q v /\ m' !! id = Some v) ->
  entries m = filter (fun e => Q e.2) (entries m').
Proof.
  intros Hm. apply (strict_keyed_unique fst); [apply entries_strict|apply StronglySorted_filter, entries_strict|].
  intros [id v]. rewrite elem_of_list_filter, !elem_of_entries. apply Hm.
Qed.

(* QueryPlans with status Active / Inactive vs. the unfiltered listing *)
Theorem plans_active s : kinv_plan s -> listing (plan_act s) = filter (fun p => pl_status p = SActive) (listing (all_plans s)).
Proof.
  intros [A B D _]. unfold listing, all_plans. rewrite <- (filter_map_snd (fun p => pl_status p = SActive)). f_equal.
  refine (entries_filter _ _ _ (Qdec := fun p => decide (pl_status p = SActive)) _).
  intros id p. rewrite lookup_union_Some_raw. split.
  - intros Hp. split; [apply (A _ _ Hp)|auto].
  - intros [Hq [Hp|[_ Hp]]]; [exact Hp|]. destruct (B _ _ Hp) as (_ & E' & _). congruence.
Qed.
Theorem plans_inactive s : kinv_plan s -> listing (plan_inact s) = filter (fun p => pl_status p = SInactive) (listing (all_plans s)).
Proof.
  intros [A B D _]. unfold listing, all_plans. rewrite <- (filter_map_snd (fun p => pl_status p = SInactive)). f_equal.
  refine (entries_filter _ _ _ (Qdec := fun p => decide (pl_status p = SInactive)) _).
  intros id p. rewrite lookup_union_Some_raw. split.
  - intros Hp. split; [apply (B _ _ Hp)|]. right. split; [eapply dp_sym_none; eauto|exact Hp].
  - intros [Hq [Hp|[_ Hp]]]; [|exact Hp]. destruct (A _ _ Hp) as (_ & E' & _). congruence.
Qed.

(* QueryNodes with a status vs. the unfiltered listing: the listing is active ++ inactive *)
Lemma filter_all {A} (Q : A -> Prop) `{forall x, Decision (Q x)} (l : list A) : (forall x, x ∈ l -> Q x) -> filter Q l = l.
Proof.
  induction l as [|x l IH]; intros Hl; [reflexivity|]. rewrite filter_cons_True by (apply Hl; left).
  f_equal. apply IH. intros y Hy. apply Hl. right. exact Hy.
Qed.
Lemma filter_none {A} (Q : A -> Prop) `{forall x, Decision (Q x)} (l : list A) : (forall x, x ∈ l -> ~ Q x) -> filter Q l = [].
Proof.
  induction l as [|x l IH]; intros Hl; [reflexivity|]. rewrite filter_cons_False by (apply Hl; left).
  apply IH. intros y Hy. apply Hl. right. exact Hy.
Qed.

Definition nodes_of (m : gmap addr node) : list node := map snd (sort_by (fun x y => addr_cmp x.1 y.1) (map_to_list m)).

Lemma all_nodes_parts s : all_nodes s = nodes_of (node_act s) ++ nodes_of (node_inact s).
Proof. reflexivity. Qed.

Lemma elem_of_nodes_of m n : n ∈ nodes_of m <-> exists a, m !! a = Some n.
Proof.
  unfold nodes_of. rewrite elem_of_list_fmap. split.
  - intros ([a n'] & -> & Hin). apply elem_of_sort_by, elem_of_map_to_list in Hin. eauto.
  - intros [a Hn]. exists (a, n). split; [reflexivity|]. apply elem_of_sort_by, elem_of_map_to_list. exact Hn.
Qed.

Theorem nodes_active s : kinv_node s -> filter (fun n => nd_status n = SActive) (all_nodes s) = nodes_of (node_act s).
Proof.
  intros [A B D]. rewrite all_nodes_parts, filter_app, filter_all, filter_none; [apply app_nil_r| |].
  - intros n Hn E. apply elem_of_nodes_of in Hn as [a Hn]. destruct (B _ _ Hn) as [_ E']. congruence.
  - intros n Hn. apply elem_of_nodes_of in Hn as [a Hn]. apply (A _ _ Hn).
Qed.
Theorem nodes_inactive s : kinv_node s -> filter (fun n => nd_status n = SInactive) (all_nodes s) = nodes_of (node_inact s).
Proof.
  intros [A B D]. rewrite all_nodes_parts, filter_app, filter_none, filter_all; [reflexivity| |].
  - intros n Hn. apply elem_of_nodes_of in Hn as [a Hn]. apply (B _ _ Hn).
  - intros n Hn E. apply elem_of_nodes_of in Hn as [a Hn]. destruct (A _ _ Hn) as [_ E']. congruence.
Qed.

(** * non-vacuity: two addresses in prefix relation *)

Example prefix_pair_listing :
  let ix : gset (addr * Z) := {[ ([1%N], 5); ([1%N; 2%N], 7); ([1%N], 9); ([], 3) ]} in
  ids_for_a ix [1%N] = [5; 9] /\ ids_for_a ix [1%N; 2%N] = [7] /\ ids_for_a ix [] = [3] /\ ids_for_a ix [2%N] = [].
Proof. vm_compute. repeat split; reflexivity. Qed.
