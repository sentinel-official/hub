(* Bank and escrow: the escrow module account always equals the sum of the
   deposit records, and the bank balances add up to the supply (C01).
   [transfer] is the one description of a keeper call from which the invariant
   here, the balance equations of Pricing.v, the record equations of Ledger1.v and
   the recipients of Flow.v are derived; the handlers and hooks are taken apart by
   the lemmas of Effects.v.  The four spellings [delta], [Pricing.moved],
   [Ledger1.dlt] and the test inside [InvDefs.unsettled] are one indicator: the
   amount if the account and the denomination are the ones concerned, else 0. *)
From Hub Require Import Base.Prelude Base.Arith Model.Types Model.Keeper Model.Handlers Model.Hooks Model.Step.
From Hub Require Import Proofs.Tactics Proofs.Effects Proofs.Frames.

(** * coins algebra *)

Lemma amount_of_empty d : amount_of ∅ d = 0.
Proof. unfold amount_of. rewrite lookup_empty. reflexivity. Qed.

Lemma amount_of_coins_set c d v d' :
  amount_of (coins_set c d v) d' = if bool_decide (d = d') then v else amount_of c d'.
Proof.
  unfold coins_set, amount_of. case_bool_decide as Hd.
  - subst d'. destruct (v =? 0) eqn:E.
    + rewrite lookup_delete. simpl. lia.
    + rewrite lookup_insert. reflexivity.
  - destruct (v =? 0) eqn:E.
    + rewrite lookup_delete_ne by exact Hd. reflexivity.
    + rewrite lookup_insert_ne by exact Hd. reflexivity.
Qed.

Lemma amount_of_coins_add c d v d' :
  amount_of (coins_add c d v) d' = amount_of c d' + (if bool_decide (d = d') then v else 0).
Proof.
  unfold coins_add. rewrite amount_of_coins_set. case_bool_decide; subst; lia.
Qed.

(** * balances *)

Lemma bal_set_bal s a d v a' d' :
  bal (set_bal s a d v) a' d' = if bool_decide (a = a' /\ d = d') then v else bal s a' d'.
Proof.
  unfold bal, set_bal. simpl.
  destruct (decide (a = a')) as [->|Ha].
  - rewrite lookup_insert. simpl. rewrite amount_of_coins_set.
    repeat case_bool_decide; try reflexivity; intuition congruence.
  - rewrite lookup_insert_ne by exact Ha.
    case_bool_decide; [intuition congruence|reflexivity].
Qed.

Definition delta (b : bool) (v : Z) : Z := if b then v else 0.
Ltac solve_delta := unfold delta; repeat case_bool_decide; first [lia | naive_solver lia].

Lemma delta_0 b : delta b 0 = 0.
Proof. destruct b; reflexivity. Qed.

Lemma bank_send_bal s f t d a s' :
  bank_send s f t d a = Ok s' ->
  0 <= a /\
  forall x d', bal s' x d' = bal s x d' + delta (bool_decide (t = x /\ d = d')) a - delta (bool_decide (f = x /\ d = d')) a.
Proof.
  unfold bank_send. intros H.
  destruct (a <? 0) eqn:E1; [discriminate|].
  destruct (a =? 0) eqn:E2.
  { injection H as <-. split; [lia|]. intros. unfold delta. repeat case_bool_decide; lia. }
  destruct (bal s f d <? a) eqn:E3; [discriminate|]. injection H as <-.
  split; [lia|]. intros x d'. rewrite !bal_set_bal. solve_delta.
Qed.

(* conservation inside the bank: the balances of a denomination add up to its supply *)
Definition bank_total (s : state) (d : denom) : Z := msum (fun c => amount_of c d) (bank s).
Definition conserved (s : state) : Prop := forall d, bank_total s d = amount_of (supply s) d.

Lemma bank_total_set_bal s a d v d' :
  bank_total (set_bal s a d v) d' = bank_total s d' + (if bool_decide (d = d') then v - bal s a d else 0).
Proof.
  unfold bank_total, set_bal, bal. simpl. rewrite msum_insert, amount_of_coins_set.
  destruct (bank s !! a) as [w|] eqn:E; simpl; case_bool_decide; subst; rewrite ?amount_of_empty; lia.
Qed.

Lemma bank_send_total s f t d a s' d' : bank_send s f t d a = Ok s' -> bank_total s' d' = bank_total s d'.
Proof.
  unfold bank_send. intros H. repeat case_match; try discriminate; injection H as <-; [reflexivity|].
  rewrite !bank_total_set_bal, bal_set_bal. solve_delta.
Qed.

Lemma bank_send_to_account_inv s f t d a s' :
  bank_send_to_account s f t d a = Ok s' -> is_blocked s t = false /\ bank_send s f t d a = Ok s'.
Proof. unfold bank_send_to_account. destruct (is_blocked s t); [discriminate|auto]. Qed.

Lemma bank_mint_bal s m d a s' :
  bank_mint s m d a = Ok s' -> forall x d', bal s' x d' = bal s x d' + delta (bool_decide (m = x /\ d = d')) a.
Proof.
  unfold bank_mint. case_match; [discriminate|]. intros [= <-] x d'. rewrite bal_set_bal.
  unfold bal at 1 2. simpl. fold (bal s m d). fold (bal s x d'). solve_delta.
Qed.

Lemma bank_mint_supply s m d a s' : bank_mint s m d a = Ok s' -> 0 < a /\ supply s' = coins_add (supply s) d a.
Proof. unfold bank_mint. destruct (Z.leb_spec a 0); [discriminate|]. intros [= <-]. auto. Qed.

(* minting to an account and sending the same amount on: the two changes of that account cancel, only
   the receiver nets *)
Lemma mint_send_bal s m t d a s1 s2 :
  bank_mint s m d a = Ok s1 -> bank_send s1 m t d a = Ok s2 ->
  forall x d', bal s2 x d' = bal s x d' + delta (bool_decide (t = x /\ d = d')) a.
Proof.
  intros H1 H2 x d'. rewrite (proj2 (bank_send_bal _ _ _ _ _ _ H2)), (bank_mint_bal _ _ _ _ _ H1). lia.
Qed.

(** * the deposit records *)

Definition dep_total (s : state) (d : denom) : Z := msum (fun c => amount_of c d) (deposits s).

Lemma dep_total_insert s a c d :
  msum (fun c => amount_of c d) (<[a := c]> (deposits s)) =
  dep_total s d - amount_of (dep_of s a) d + amount_of c d.
Proof.
  unfold dep_total, dep_of. rewrite msum_insert. destruct (deposits s !! a); simpl; [reflexivity|].
  rewrite amount_of_empty. reflexivity.
Qed.

Lemma dep_total_delete s a d :
  msum (fun c => amount_of c d) (delete a (deposits s)) = dep_total s d - amount_of (dep_of s a) d.
Proof.
  unfold dep_total, dep_of. rewrite msum_delete'. destruct (deposits s !! a); simpl; [reflexivity|].
  rewrite amount_of_empty. lia.
Qed.

Lemma dep_remaining_spec s from d amt dep :
  dep_remaining s from d amt = Ok dep ->
  exists old, deposits s !! from = Some old /\ 0 <= amount_of old d - amt /\ dep = coins_set old d (amount_of old d - amt).
Proof.
  unfold dep_remaining. destruct (deposits s !! from) as [old|]; [|discriminate].
  destruct (amount_of old d - amt <? 0) eqn:E; [discriminate|]. intros [= <-].
  exists old. split; [reflexivity|]. split; [lia|reflexivity].
Qed.

Lemma dep_store_total s from dep d' :
  dep_total (dep_store s from dep) d' = dep_total s d' - amount_of (dep_of s from) d' + amount_of dep d'.
Proof.
  unfold dep_store. case_bool_decide as He.
  - subst dep. unfold dep_total at 1. simpl. rewrite dep_total_delete. rewrite amount_of_empty. lia.
  - unfold dep_total at 1. simpl. apply dep_total_insert.
Qed.

Lemma dep_of_dep_store s from dep x :
  dep_of (dep_store s from dep) x = if bool_decide (x = from) then dep else dep_of s x.
Proof.
  unfold dep_store, dep_of. case_bool_decide as He; simpl; case_bool_decide as Hx; subst;
    rewrite ?lookup_delete, ?lookup_insert; try reflexivity;
    [rewrite lookup_delete_ne by congruence|rewrite lookup_insert_ne by congruence]; reflexivity.
Qed.

(** * one description of what a keeper call does to the money *)

(* [amt] of [d] goes from bank account [f] to bank account [t] and the deposit record of [r]
   changes by [v]; nothing else happens to balances and records.  Every consequence drawn from a
   keeper call below (escrow, supply, who gains, the ledger) comes from these five facts. *)
Record transfer (s s' : state) (f t : addr) (d : denom) (amt : Z) (r : addr) (v : Z) : Prop := {
  tr_amt : 0 <= amt;
  tr_bal : forall x d', bal s' x d' =
             bal s x d' + (delta (bool_decide (t = x /\ d = d')) amt - delta (bool_decide (f = x /\ d = d')) amt);
  tr_total : forall d', bank_total s' d' = bank_total s d';
  tr_dep : forall x d', amount_of (dep_of s' x) d' =
             amount_of (dep_of s x) d' + delta (bool_decide (x = r /\ d' = d)) v;
  tr_dep_total : forall d', dep_total s' d' = dep_total s d' + delta (bool_decide (d = d')) v }.

Lemma transfer_refl s f t d r : transfer s s f t d 0 r 0.
Proof. split; intros; rewrite ?delta_0; lia. Qed.

Lemma transfer_frame s0 s0' s s' f t d amt r v :
  bank s0 = bank s -> deposits s0 = deposits s -> bank s0' = bank s' -> deposits s0' = deposits s' ->
  transfer s s' f t d amt r v -> transfer s0 s0' f t d amt r v.
Proof.
  intros E1 E2 E3 E4 [A B C D E]. split; [exact A|..]; intros; unfold bal, bank_total, dep_of, dep_total in *;
    rewrite ?E1, ?E2, ?E3, ?E4; auto.
Qed.

Lemma bank_send_transfer s f t d a s' r : bank_send s f t d a = Ok s' -> transfer s s' f t d a r 0.
Proof.
  intros H. destruct (bank_send_bal _ _ _ _ _ _ H) as [Ha Hb].
  pose proof (keeps_dep _ _ _ (bank_send_keeps _ _ _ _ _ _ H) eq_refl) as Hd.
  split; [exact Ha|..]; intros.
  - rewrite Hb. lia.
  - eapply bank_send_total; eauto.
  - unfold dep_of. rewrite Hd, delta_0. lia.
  - unfold dep_total. rewrite Hd, delta_0. lia.
Qed.

Lemma dep_add_transfer s a d v s' : dep_add s a d v = Ok s' -> transfer s s' a (c_deposit (cfg s)) d v a v.
Proof.
  unfold dep_add. intros H. apply rbind_ok in H as (s1 & Hs & H). injection H as <-.
  destruct (bank_send_transfer _ _ _ _ _ _ a Hs) as [Ha Hb Ht _ _].
  pose proof (keeps_dep _ _ _ (bank_send_keeps _ _ _ _ _ _ Hs) eq_refl) as Hd.
  split; [exact Ha|exact Hb|exact Ht|..].
  - intros x d'. unfold dep_of. simpl. rewrite Hd. destruct (decide (x = a)) as [->|Hne].
    + rewrite lookup_insert. simpl. rewrite amount_of_coins_add. solve_delta.
    + rewrite lookup_insert_ne by congruence. rewrite bool_decide_eq_false_2 by (intros [? _]; contradiction).
      unfold delta. lia.
  - intros d'. unfold dep_total at 1. simpl. rewrite Hd, dep_total_insert, amount_of_coins_add.
    unfold dep_of. rewrite Hd. solve_delta.
Qed.

(* money leaving the escrow account towards [t] with the record of [from] reduced accordingly *)
Lemma dep_out_transfer s s1 from t d amt dep :
  dep_remaining s from d amt = Ok dep -> bank_send s (c_deposit (cfg s)) t d amt = Ok s1 ->
  transfer s (dep_store s1 from dep) (c_deposit (cfg s)) t d amt from (- amt).
Proof.
  intros Hrem Hs. destruct (dep_remaining_spec _ _ _ _ _ Hrem) as (old & Hold & Hge & ->).
  destruct (bank_send_transfer _ _ _ _ _ _ from Hs) as [Ha Hb Ht _ _].
  pose proof (keeps_dep _ _ _ (bank_send_keeps _ _ _ _ _ _ Hs) eq_refl) as Hd.
  pose proof (keeps_bank _ _ _ (dep_store_keeps s1 from (coins_set old d (amount_of old d - amt))) eq_refl) as Ebk.
  split; [exact Ha|..].
  - intros x d'. unfold bal. rewrite Ebk. apply Hb.
  - intros d'. unfold bank_total. rewrite Ebk. apply Ht.
  - intros x d'. rewrite dep_of_dep_store. unfold dep_of. rewrite Hd. case_bool_decide as Hx.
    + subst x. rewrite Hold, amount_of_coins_set. simpl. solve_delta.
    + rewrite bool_decide_eq_false_2 by (intros [? _]; contradiction). unfold delta. lia.
  - intros d'. rewrite dep_store_total. unfold dep_total, dep_of. rewrite Hd, Hold, amount_of_coins_set. simpl.
    solve_delta.
Qed.

Lemma dep_to_module_transfer s from m d amt s' :
  dep_to_module s from m d amt = Ok s' -> transfer s s' (c_deposit (cfg s)) m d amt from (- amt).
Proof.
  unfold dep_to_module. intros H. apply rbind_ok in H as (dep & Hrem & H). apply rbind_ok in H as (s1 & Hs & H).
  injection H as <-. eapply transfer_frame; [..|exact (dep_out_transfer _ _ _ _ _ _ _ Hrem Hs)]; reflexivity.
Qed.

Lemma dep_to_account_transfer s from t d amt s' :
  dep_to_account s from t d amt = Ok s' ->
  is_blocked s t = false /\ transfer s s' (c_deposit (cfg s)) t d amt from (- amt).
Proof.
  unfold dep_to_account. intros H. apply rbind_ok in H as (dep & Hrem & H). apply rbind_ok in H as (s1 & Hs & H).
  injection H as <-. apply bank_send_to_account_inv in Hs as [Hbl Hs]. split; [exact Hbl|].
  eapply transfer_frame; [..|exact (dep_out_transfer _ _ _ _ _ _ _ Hrem Hs)]; reflexivity.
Qed.

(* the alias.go wrappers do nothing on a zero coin, which is the same transfer with amount 0 *)
Lemma zero_or_ok (c : coin) s (m : res state) s' :
  (if c.2 =? 0 then Ok s else m) = Ok s' -> c.2 = 0 /\ s' = s \/ m = Ok s'.
Proof. destruct (Z.eqb_spec c.2 0) as [E|E]; [intros [= <-]; left|right]; auto. Qed.

Lemma z_send_transfer s f t c s' r : z_send s f t c = Ok s' -> transfer s s' f t c.1 c.2 r 0.
Proof.
  intros H. apply zero_or_ok in H as [[E ->]|H]; [rewrite E; apply transfer_refl|exact (bank_send_transfer _ _ _ _ _ _ r H)].
Qed.

Lemma fund_pool_transfer s f c s' r : fund_pool s f c = Ok s' -> transfer s s' f (c_distr (cfg s)) c.1 c.2 r 0.
Proof. exact (z_send_transfer s f (c_distr (cfg s)) c s' r). Qed.

Lemma z_dep_add_transfer s a c s' : z_dep_add s a c = Ok s' -> transfer s s' a (c_deposit (cfg s)) c.1 c.2 a c.2.
Proof.
  intros H. apply zero_or_ok in H as [[E ->]|H]; [rewrite E; apply transfer_refl|exact (dep_add_transfer _ _ _ _ _ H)].
Qed.

Lemma z_dep_to_module_transfer s from m c s' :
  z_dep_to_module s from m c = Ok s' -> transfer s s' (c_deposit (cfg s)) m c.1 c.2 from (- c.2).
Proof.
  intros H. apply zero_or_ok in H as [[E ->]|H]; [rewrite E; apply transfer_refl|exact (dep_to_module_transfer _ _ _ _ _ _ H)].
Qed.

(* (a zero coin is "sent" even to a blocked address) *)
Lemma z_dep_to_account_transfer s from t c s' :
  z_dep_to_account s from t c = Ok s' -> transfer s s' (c_deposit (cfg s)) t c.1 c.2 from (- c.2).
Proof.
  intros H. apply zero_or_ok in H as [[E ->]|H]; [rewrite E; apply transfer_refl|exact (proj2 (dep_to_account_transfer _ _ _ _ _ _ H))].
Qed.

(* fee to a module account, the rest to the payee: the two debits of an hourly payout and of a
   session settlement, seen from a state [s] with the bank, records and configuration of [s0] *)
Lemma pay_transfers s s0 from m t d fee rest s2 s3 :
  z_dep_to_module s0 from m (d, fee) = Ok s2 -> z_dep_to_account s2 from t (d, rest) = Ok s3 ->
  bank s0 = bank s -> deposits s0 = deposits s -> cfg s0 = cfg s ->
  transfer s s2 (c_deposit (cfg s)) m d fee from (- fee) /\
  transfer s2 s3 (c_deposit (cfg s)) t d rest from (- rest).
Proof.
  intros H2 H3 Eb Ed Ec.
  pose proof (z_dep_to_module_transfer _ _ _ _ _ H2) as T1. pose proof (z_dep_to_account_transfer _ _ _ _ _ H3) as T2.
  rewrite (proj1 (z_dep_to_module_keeps _ _ _ _ _ H2)) in T2. rewrite Ec in T1, T2. split; [|exact T2].
  exact (transfer_frame _ _ _ _ _ _ _ _ _ _ (eq_sym Eb) (eq_sym Ed) eq_refl eq_refl T1).
Qed.

(** * the money invariant *)

Definition escrow_ok (s : state) : Prop := forall d, bal s (c_deposit (cfg s)) d = dep_total s d.

Record wf_cfg (c : config) : Prop := {
  wf_dep_blocked : c_deposit c ∈ c_blocked c;
  wf_fee_ne : c_feecoll c <> c_deposit c;
  wf_distr_ne : c_distr c <> c_deposit c;
  wf_swap_ne : c_swap c <> c_deposit c }.

Definition msg_from (m : msg) : taddr :=
  match m with
  | MProvRegister f _ _ _ _ _ | MProvUpdate f _ _ _ _ _ _ | MNodeRegister f _ _ _ _ | MNodeUpdateDetails f _ _ _ _
  | MNodeUpdateStatus f _ | MNodeSubscribe f _ _ _ _ | MPlanCreate f _ _ _ | MPlanUpdateStatus f _ _
  | MPlanLink f _ _ | MPlanUnlink f _ _ | MPlanSubscribe f _ _ | MSubCancel f _ | MSubAllocate f _ _ _
  | MSessStart f _ _ | MSessUpdate f _ _ _ _ _ _ | MSessEnd f _ _ | MSwap f _ _ _ => f
  end.

(* module accounts never originate transactions (DESIGN section 5.5) *)
Definition wf_op (s : state) (o : op) : Prop :=
  match o with
  | OTx m => ta_bytes (msg_from m) ∉ c_blocked (cfg s)
  | _ => True
  end.

Definition plans_ok (s : state) : Prop :=
  map_Forall (fun _ p => pl_prov p ∉ c_blocked (cfg s)) (plan_act s) /\
  map_Forall (fun _ p => pl_prov p ∉ c_blocked (cfg s)) (plan_inact s).

Lemma plans_ok_get s id p : plans_ok s -> get_plan s id = Some p -> pl_prov p ∉ c_blocked (cfg s).
Proof.
  intros [Ha Hi]. unfold get_plan. destruct (plan_act s !! id) eqn:E.
  - intros [= <-]. exact (Ha _ _ E).
  - intros E2. exact (Hi _ _ E2).
Qed.

Record money_inv (s : state) : Prop := {
  mi_cfg : wf_cfg (cfg s);
  mi_escrow : escrow_ok s;
  mi_plans : plans_ok s;
  mi_total : conserved s }.

Lemma money_inv_plans s s' :
  cfg s' = cfg s -> bank s' = bank s -> deposits s' = deposits s -> supply s' = supply s -> plans_ok s' ->
  money_inv s -> money_inv s'.
Proof.
  intros Ec Eb Ed Es Hp' [Hc He Hp Ht]. split; [rewrite Ec; exact Hc| |exact Hp'|].
  - intros d. unfold bal, dep_total. rewrite Ec, Eb, Ed. apply He.
  - intros d. unfold bank_total. rewrite Eb, Es. apply Ht.
Qed.

Lemma money_inv_frame s s' :
  cfg s' = cfg s -> bank s' = bank s -> deposits s' = deposits s -> supply s' = supply s ->
  plan_act s' = plan_act s -> plan_inact s' = plan_inact s -> money_inv s -> money_inv s'.
Proof.
  intros Ec Eb Ed Es Ea Ei Hi. apply (money_inv_plans s s' Ec Eb Ed Es); [|exact Hi].
  unfold plans_ok. rewrite Ec, Ea, Ei. apply Hi.
Qed.

Lemma money_inv_keeps T s s' :
  keeps T s s' -> touched GBank T = false -> touched GDep T = false -> touched GPl T = false ->
  touched GSupply T = false -> money_inv s -> money_inv s'.
Proof.
  intros K Tb Td Tp Ts. destruct (keeps_plan _ _ _ K Tp) as (Ha & Hi & _).
  exact (money_inv_frame s s' (keeps_cfg _ _ _ K) (keeps_bank _ _ _ K Tb) (keeps_dep _ _ _ K Td) (keeps_supply _ _ _ K Ts) Ha Hi).
Qed.

(* a transfer keeps the invariant when what the escrow account gains is what the records gain *)
Lemma money_inv_transfer T s s' f t d amt r v :
  money_inv s -> keeps T s s' -> touched GPl T = false -> touched GSupply T = false ->
  transfer s s' f t d amt r v ->
  delta (bool_decide (t = c_deposit (cfg s))) amt - delta (bool_decide (f = c_deposit (cfg s))) amt = v ->
  money_inv s'.
Proof.
  intros [Hc He Hp Ht] K Tp Ts [_ Hb Hbt _ Hdt] Hv.
  destruct (keeps_plan _ _ _ K Tp) as (Ea & Ei & _). pose proof (keeps_cfg _ _ _ K) as Ec.
  pose proof (keeps_supply _ _ _ K Ts) as Hs. split.
  - rewrite Ec. exact Hc.
  - intros d'. rewrite Ec, Hb, Hdt, (He d'), <- Hv. clear. solve_delta.
  - unfold plans_ok. rewrite Ec, Ea, Ei. exact Hp.
  - intros d'. rewrite Hbt, Hs. apply Ht.
Qed.

(* a bank transfer between two accounts that are not the escrow *)
Lemma money_inv_bank_send s f t d a s' :
  money_inv s -> f <> c_deposit (cfg s) -> t <> c_deposit (cfg s) -> bank_send s f t d a = Ok s' -> money_inv s'.
Proof.
  intros Hi Hf Ht H.
  apply (money_inv_transfer _ _ _ _ _ _ _ f _ Hi (bank_send_keeps _ _ _ _ _ _ H) eq_refl eq_refl (bank_send_transfer _ _ _ _ _ _ f H)).
  rewrite !bool_decide_eq_false_2 by assumption. reflexivity.
Qed.

Lemma money_inv_z_send s f t c s' :
  money_inv s -> f <> c_deposit (cfg s) -> t <> c_deposit (cfg s) -> z_send s f t c = Ok s' -> money_inv s'.
Proof.
  intros Hi Hf Ht H. apply zero_or_ok in H as [[_ ->]|H]; [exact Hi|exact (money_inv_bank_send _ _ _ _ _ _ Hi Hf Ht H)].
Qed.

Lemma money_inv_fund_pool s f c s' :
  money_inv s -> f <> c_deposit (cfg s) -> fund_pool s f c = Ok s' -> money_inv s'.
Proof. intros Hi Hf. apply (money_inv_z_send s f (c_distr (cfg s)) c s' Hi Hf), Hi. Qed.

Lemma money_inv_z_dep_add s a c s' :
  money_inv s -> a <> c_deposit (cfg s) -> z_dep_add s a c = Ok s' -> money_inv s'.
Proof.
  intros Hi Ha H.
  apply (money_inv_transfer _ _ _ _ _ _ _ _ _ Hi (z_dep_add_keeps _ _ _ _ H) eq_refl eq_refl (z_dep_add_transfer _ _ _ _ H)).
  rewrite bool_decide_eq_true_2, bool_decide_eq_false_2 by auto. apply Z.sub_0_r.
Qed.

Lemma money_inv_z_dep_to_module s f m c s' :
  money_inv s -> m <> c_deposit (cfg s) -> z_dep_to_module s f m c = Ok s' -> money_inv s'.
Proof.
  intros Hi Hm H.
  apply (money_inv_transfer _ _ _ _ _ _ _ _ _ Hi (z_dep_to_module_keeps _ _ _ _ _ H) eq_refl eq_refl (z_dep_to_module_transfer _ _ _ _ _ H)).
  rewrite bool_decide_eq_false_2, bool_decide_eq_true_2 by auto. reflexivity.
Qed.

(* a payment out of the escrow never goes back to the escrow account: that account is blocked,
   and a zero coin moves nothing *)
Lemma money_inv_z_dep_to_account s f t c s' : money_inv s -> z_dep_to_account s f t c = Ok s' -> money_inv s'.
Proof.
  intros Hi H. pose proof (z_dep_to_account_keeps _ _ _ _ _ H) as Hk.
  apply zero_or_ok in H as [[_ ->]|H]; [exact Hi|]. destruct (dep_to_account_transfer _ _ _ _ _ _ H) as [Hbl Htr].
  apply (money_inv_transfer _ _ _ _ _ _ _ _ _ Hi Hk eq_refl eq_refl Htr).
  rewrite bool_decide_eq_false_2; [rewrite bool_decide_eq_true_2 by reflexivity; reflexivity|].
  intros ->. apply bool_decide_eq_false in Hbl. apply Hbl, Hi.
Qed.

(* crediting [a] of [d] to the supply and to an account other than the escrow: minting, genesis balances *)
Lemma money_inv_credit s m d a :
  money_inv s -> m <> c_deposit (cfg s) ->
  money_inv (set_bal (s <| supply ::= fun c => coins_add c d a |>) m d (bal s m d + a)).
Proof.
  intros [Hc He Hp Ht] Hm. split; [exact Hc| |exact Hp|].
  - intros d'. rewrite bal_set_bal, bool_decide_eq_false_2 by (intros [E _]; exact (Hm E)). exact (He d').
  - intros d'. rewrite bank_total_set_bal. unfold bank_total, bal. simpl.
    fold (bank_total s d'). fold (bal s m d). rewrite amount_of_coins_add, <- (Ht d'). case_bool_decide; lia.
Qed.

Lemma money_inv_bank_mint s m d a s' :
  money_inv s -> m <> c_deposit (cfg s) -> bank_mint s m d a = Ok s' -> money_inv s'.
Proof.
  intros Hi Hm H. unfold bank_mint in H. destruct (a <=? 0); [discriminate|]. injection H as <-.
  exact (money_inv_credit _ _ _ _ Hi Hm).
Qed.

(** * preservation of the money invariant by every operation *)

Definition NONMONEY : list grp := [GPv; GNode; GSub; GSess; GPar; GSwap; GMint; GNow].

Section handlers.
  Variable s : state.
  Hypothesis Hi : money_inv s.

  Lemma unblocked_ne_deposit a : a ∉ c_blocked (cfg s) -> a <> c_deposit (cfg s).
  Proof. intros Ha ->. apply Ha, Hi. Qed.

  Lemma money_h_prov_register from n i w d s' :
    ta_bytes from ∉ c_blocked (cfg s) -> h_prov_register s from n i w d = Ok s' -> money_inv s'.
  Proof.
    intros Hf H. destruct (h_prov_register_effect _ _ _ _ _ _ _ H) as (s1 & _ & H1 & ->).
    apply (money_inv_frame s1); [reflexivity..|]. exact (money_inv_fund_pool _ _ _ _ Hi (unblocked_ne_deposit _ Hf) H1).
  Qed.

  Lemma money_h_node_register from gb hr url s' :
    ta_bytes from ∉ c_blocked (cfg s) -> h_node_register s from gb hr url = Ok s' -> money_inv s'.
  Proof.
    intros Hf H. destruct (h_node_register_effect _ _ _ _ _ _ H) as (s1 & _ & _ & _ & H1 & ->).
    apply (money_inv_frame s1); [reflexivity..|]. exact (money_inv_fund_pool _ _ _ _ Hi (unblocked_ne_deposit _ Hf) H1).
  Qed.

  Lemma money_create_sub_for_node acc nd g h dn s' id :
    acc ∉ c_blocked (cfg s) -> create_sub_for_node s acc nd g h dn = Ok (s', id) -> money_inv s'.
  Proof.
    intros Hf H. destruct (create_sub_for_node_effect _ _ _ _ _ _ _ _ H) as (n & inact & dep & s1 & _ & _ & _ & H1 & _ & ->).
    apply (money_inv_frame s1); [reflexivity..|]. exact (money_inv_z_dep_add _ _ _ _ Hi (unblocked_ne_deposit _ Hf) H1).
  Qed.

  Lemma money_h_plan_create from du g pr s' :
    ta_bytes from ∉ c_blocked (cfg s) -> h_plan_create s from du g pr = Ok s' -> money_inv s'.
  Proof.
    intros Hf H. unfold h_plan_create in H. apply rbind_ok in H as (u & _ & H). apply rbind_ok in H as (s1 & H1 & H).
    injection H as <-. injection H1 as <-.
    destruct Hi as [Hc He [Hpa Hpi] Ht]. split; [exact Hc|exact He| |exact Ht].
    split; [exact Hpa|]. apply map_Forall_insert_2; [exact Hf|exact Hpi].
  Qed.

  (* moving a plan between the two status partitions keeps its provider *)
  Lemma money_h_plan_update_status from id st s' : h_plan_update_status s from id st = Ok s' -> money_inv s'.
  Proof.
    intros H. pose proof (h_plan_update_status_keeps _ _ _ _ _ H) as K.
    apply (money_inv_plans s s' (keeps_cfg _ _ _ K) (keeps_bank _ _ _ K eq_refl) (keeps_dep _ _ _ K eq_refl)
             (keeps_supply _ _ _ K eq_refl)); [|exact Hi]. clear K.
    unfold h_plan_update_status in H. destruct (get_plan s id) as [p|] eqn:Hg; [|discriminate].
    apply rbind_ok in H as (u & _ & H). apply rbind_ok in H as (s3 & H3 & H). apply ok_inj in H. subst s'.
    pose proof (plans_ok_get _ _ _ (mi_plans _ Hi) Hg) as Hprov. destruct (mi_plans _ Hi) as [Hpa Hpi].
    unfold set_plan in H3. simpl in H3.
    destruct st; try discriminate; apply ok_inj in H3; subst s3; repeat case_bool_decide; split; simpl;
      repeat (apply map_Forall_insert_2 || apply map_Forall_delete); assumption.
  Qed.

  Lemma money_h_plan_link from id nd s' : h_plan_link s from id nd = Ok s' -> money_inv s'.
  Proof.
    intros H. unfold h_plan_link in H. destruct (get_plan s id); [|discriminate].
    apply rbind_ok in H as (u1 & _ & H). apply rbind_ok in H as (u2 & _ & H). injection H as <-.
    apply (money_inv_frame s); [reflexivity..|exact Hi].
  Qed.
  Lemma money_h_plan_unlink from id nd s' : h_plan_unlink s from id nd = Ok s' -> money_inv s'.
  Proof.
    intros H. unfold h_plan_unlink in H. destruct (get_plan s id); [|discriminate].
    apply rbind_ok in H as (u1 & _ & H). injection H as <-.
    apply (money_inv_frame s); [reflexivity..|exact Hi].
  Qed.

  Lemma money_create_sub_for_plan acc pid dn s' id :
    acc ∉ c_blocked (cfg s) -> create_sub_for_plan s acc pid dn = Ok (s', id) -> money_inv s'.
  Proof.
    intros Hf H.
    destruct (create_sub_for_plan_effect _ _ _ _ _ _ H) as (p & price & fee & s1 & s2 & Hp & _ & _ & _ & _ & _ & H1 & H2 & _ & _ & ->).
    pose proof (plans_ok_get _ _ _ (mi_plans _ Hi) Hp) as Hprov. pose proof (keeps_cfg _ _ _ (z_send_keeps _ _ _ _ _ H1)) as Hc1.
    apply (money_inv_z_send _ _ _ _ _ Hi (unblocked_ne_deposit _ Hf) (wf_fee_ne _ (mi_cfg _ Hi))) in H1.
    apply (money_inv_z_send _ _ _ _ _ H1) in H2; [|rewrite Hc1; apply unblocked_ne_deposit; assumption..].
    apply (money_inv_frame s2); [reflexivity..|exact H2].
  Qed.

  Lemma money_h_swap from h r a s' : h_swap s from h r a = Ok s' -> money_inv s'.
  Proof.
    intros H. destruct (h_swap_effect _ _ _ _ _ _ H) as (s1 & s2 & _ & _ & _ & _ & H1 & H2 & ->).
    pose proof (keeps_cfg _ _ _ (bank_mint_keeps _ _ _ _ _ H1)) as Hc1.
    apply (money_inv_bank_mint _ _ _ _ _ Hi (wf_swap_ne _ (mi_cfg _ Hi))) in H1.
    apply bank_send_to_account_inv in H2 as [Hbl H2]. apply (money_inv_bank_send _ _ _ _ _ _ H1) in H2.
    - apply (money_inv_frame s2); [reflexivity..|exact H2].
    - rewrite Hc1. apply (wf_swap_ne _ (mi_cfg _ Hi)).
    - intros E. apply bool_decide_eq_false in Hbl. apply Hbl. rewrite E. apply (mi_cfg _ H1).
  Qed.

End handlers.

(** * hooks *)

Lemma money_inv_pay s from t c1 c2 s2 s3 :
  money_inv s -> z_dep_to_module s from (c_feecoll (cfg s)) c1 = Ok s2 -> z_dep_to_account s2 from t c2 = Ok s3 ->
  money_inv s3.
Proof.
  intros Hi H2 H3. apply (money_inv_z_dep_to_module _ _ _ _ _ Hi (wf_fee_ne _ (mi_cfg _ Hi))) in H2.
  exact (money_inv_z_dep_to_account _ _ _ _ _ H2 H3).
Qed.

Lemma money_payout_step s e s' : money_inv s -> payout_step s e = Ok s' -> money_inv s'.
Proof.
  intros Hi H. destruct (payout_step_effect _ _ _ H) as (po & fee & s2 & s3 & _ & _ & _ & H2 & H3 & ->).
  apply (money_inv_frame s3); [reflexivity..|].
  refine (money_inv_pay _ _ _ _ _ _ _ _ H2 H3). apply (money_inv_frame s); [reflexivity..|exact Hi].
Qed.

Lemma money_session_inactive_hook s sid acc nd b s' :
  money_inv s -> session_inactive_hook s sid acc nd b = Ok s' -> money_inv s'.
Proof.
  intros Hi H. destruct (session_inactive_hook_effect _ _ _ _ _ _ H) as (x & sb & _ & _ & _ & E).
  assert (Hu : forall al u, money_inv (usage_state s al u)) by (intros; apply (money_inv_frame s); [reflexivity..|exact Hi]).
  destruct (sb_kind sb) as [n g h dep|]; [|destruct E as (al & _ & ->); apply Hu].
  destruct (negb (h =? 0)); [subst s'; exact Hi|]. destruct E as (al & _ & E). cbv zeta in E.
  destruct (g =? 0); [subst s'; apply Hu|].
  destruct E as (prev & cur & fee & s2 & s3 & _ & _ & _ & _ & _ & _ & H2 & H3 & ->).
  apply (money_inv_frame s3); [reflexivity..|]. exact (money_inv_pay _ _ _ _ _ _ _ (Hu _ _) H2 H3).
Qed.

Lemma money_session_expire_one s e s' : money_inv s -> session_expire_one s e = Ok s' -> money_inv s'.
Proof.
  intros Hi H. destruct (session_expire_one_effect _ _ _ H) as (x & _ & [[_ ->]|(_ & _ & s1 & H1 & ->)]).
  - apply (money_inv_frame s); [reflexivity..|exact Hi].
  - apply (money_inv_frame s1); [reflexivity..|].
    refine (money_session_inactive_hook _ _ _ _ _ _ _ H1). apply (money_inv_frame s); [reflexivity..|exact Hi].
Qed.

Lemma money_refunded s sb a c s' : money_inv s -> refunded s sb a c s' -> money_inv s'.
Proof.
  intros Hi (_ & s0 & H0 & ->). apply (money_inv_frame s0); [reflexivity..|].
  exact (money_inv_z_dep_to_account _ _ _ _ _ Hi H0).
Qed.

Lemma money_sub_refund s sb s' : money_inv s -> sub_refund s sb = Ok s' -> money_inv s'.
Proof.
  intros Hi H. apply sub_refund_effect in H. destruct (sb_kind sb) as [n g h dep|]; [|subst s'; exact Hi].
  destruct H as (s1 & H1 & H2).
  assert (Hi1 : money_inv s1).
  { destruct (g =? 0); [subst s1; exact Hi|]. destruct H1 as (al & paid & _ & _ & _ & H1). exact (money_refunded _ _ _ _ _ Hi H1). }
  destruct (h =? 0); [subst s'; exact Hi1|]. destruct H2 as (po & _ & H2). exact (money_refunded _ _ _ _ _ Hi1 H2).
Qed.

Lemma money_sub_expire_one s e s' : money_inv s -> sub_expire_one s e = Ok s' -> money_inv s'.
Proof.
  intros Hi H. destruct (sub_expire_one_effect _ _ _ H) as (sb & _ & E).
  assert (Hi0 : money_inv (sub_unqueue s sb)) by (apply (money_inv_frame s); [reflexivity..|exact Hi]).
  destruct E as [(_ & s1 & H1 & H2)|(_ & s1 & H1 & H2)].
  - apply sub_pending_hook_keeps in H1. apply detach_payout_keeps in H2; [|discriminate].
    apply (money_inv_keeps _ _ _ H2); [reflexivity..|]. apply (money_inv_keeps _ _ _ (sub_make_pending_keeps s1 sb)); [reflexivity..|].
    apply (money_inv_keeps _ _ _ H1); [reflexivity..|exact Hi0].
  - apply (money_sub_refund _ _ _ Hi0) in H1. apply sub_delete_payout_keeps in H2.
    apply (money_inv_keeps _ _ _ H2); [reflexivity..|]. apply (money_inv_frame (sub_cleanup s1 sb)); [reflexivity..|].
    apply (money_inv_keeps _ _ _ (sub_cleanup_keeps s1 sb)); [reflexivity..|exact H1].
Qed.

Lemma money_begin_block s s' : money_inv s -> begin_block s = Ok s' -> money_inv s'.
Proof.
  intros Hi H. apply begin_block_effect in H as (s1 & H1 & H).
  apply mint_begin_block_keeps in H1. apply (money_inv_keeps _ _ _ H1) in Hi; [|reflexivity..].
  exact (rfold_inv money_inv payout_step _ _ _ money_payout_step Hi H).
Qed.

Lemma money_end_block s s' : money_inv s -> end_block s = Ok s' -> money_inv s'.
Proof.
  intros Hi H. apply end_block_effect in H as (s1 & s2 & H1 & H2 & H).
  apply node_end_block_keeps in H1. apply (money_inv_keeps _ _ _ H1) in Hi; [|reflexivity..].
  apply (rfold_inv money_inv session_expire_one _ _ _ money_session_expire_one Hi) in H2.
  exact (rfold_inv money_inv sub_expire_one _ _ _ money_sub_expire_one H2 H).
Qed.

Lemma money_handle s m s' :
  money_inv s -> ta_bytes (msg_from m) ∉ c_blocked (cfg s) -> handle s m = Ok s' -> money_inv s'.
Proof.
  intros Hi Hf H. pose proof (handle_frame _ _ _ H) as Hk.
  destruct m; simpl in H, Hf; try exact (money_inv_keeps _ _ _ Hk eq_refl eq_refl eq_refl eq_refl Hi); clear Hk.
  - eapply money_h_prov_register; eauto.
  - eapply money_h_node_register; eauto.
  - destruct (h_node_subscribe_effect _ _ _ _ _ _ _ H) as (s1 & sid & _ & _ & H1 & ->).
    apply (money_inv_frame s1); [reflexivity..|]. exact (money_create_sub_for_node _ Hi _ _ _ _ _ _ _ Hf H1).
  - eapply money_h_plan_create; eauto.
  - eapply money_h_plan_update_status; eauto.
  - eapply money_h_plan_link; eauto.
  - eapply money_h_plan_unlink; eauto.
  - destruct (h_plan_subscribe_effect _ _ _ _ _ H) as (s1 & sid & H1 & ->).
    apply (money_inv_frame s1); [reflexivity..|]. exact (money_create_sub_for_plan _ Hi _ _ _ _ _ Hf H1).
  - eapply money_h_swap; eauto.
Qed.

Lemma money_inv_clear s : money_inv s -> money_inv (clear_events s).
Proof. apply money_inv_frame; reflexivity. Qed.

Theorem money_inv_step s o s' : money_inv s -> wf_op s o -> step s o = OOk s' -> money_inv s'.
Proof.
  intros Hi Hwf H. apply step_inv in H. apply money_inv_clear in Hi. destruct o.
  - refine (money_begin_block _ _ _ H). apply (money_inv_frame (clear_events s)); [reflexivity..|exact Hi].
  - destruct H as [_ H]. exact (money_handle _ m s' Hi Hwf H).
  - destruct H as [_ ->]. apply (fold_left_inv money_inv); [|exact Hi].
    intros x c. apply (money_inv_keeps _ _ _ (apply_pchange_keeps x c)); reflexivity.
  - destruct H as (se & H & ->). apply (money_inv_frame se); [reflexivity..|]. exact (money_end_block _ _ Hi H).
Qed.

Fixpoint wf_ops (s : state) (ops : list op) : Prop :=
  match ops with
  | [] => True
  | o :: ops' => wf_op s o /\ wf_ops s ops'
  end.

Lemma wf_ops_cfg s s' ops : cfg s' = cfg s -> wf_ops s ops -> wf_ops s' ops.
Proof.
  intros Hc. induction ops as [|o ops IH]; simpl; [auto|]. intros [H1 H2]. split; [|auto].
  destruct o; simpl in *; auto. rewrite Hc. exact H1.
Qed.

(* every reachable state of every well-formed history satisfies the invariant *)
Theorem money_inv_run ops : forall s i s',
  money_inv s -> wf_ops s ops -> run_from s ops i = RunOk s' -> money_inv s'.
Proof.
  induction ops as [|o ops IH]; simpl; intros s i s' Hi Hwf H.
  - injection H as <-. exact Hi.
  - destruct Hwf as [Hw1 Hw2]. destruct (step s o) eqn:E; try discriminate.
    + eapply IH; [eapply money_inv_step; eauto| |exact H]. exact (wf_ops_cfg _ _ _ (step_cfg _ _ _ E) Hw2).
    + eapply IH; [apply money_inv_clear; exact Hi| |exact H]. exact (wf_ops_cfg s (clear_events s) _ eq_refl Hw2).
Qed.

(** * the genesis state of DESIGN section 5.2 (empty marketplace) satisfies the invariant *)

Definition wf_genesis (g : genesis) : Prop :=
  wf_cfg (g_cfg g) /\ (forall a c, (a, c) ∈ g_balances g -> a <> c_deposit (g_cfg g)).

Lemma money_inv_init g : wf_genesis g -> money_inv (init g).
Proof.
  intros [Hwf Hb]. unfold init.
  set (f := fun s '(a, (d, v)) => set_bal (s <| supply ::= fun c => coins_add c d v |>) a d (bal s a d + v)).
  assert (Hfold : forall l s0, (forall a c, (a, c) ∈ l -> a <> c_deposit (cfg s0)) -> money_inv s0 -> money_inv (fold_left f l s0)).
  { induction l as [|[a [d v]] l IH]; intros s0 Hin H0; [exact H0|]. simpl. apply IH.
    - intros a' c' Hin'. apply (Hin a' c'). right. exact Hin'.
    - apply money_inv_credit; [exact H0|]. apply (Hin a (d, v)). left. }
  destruct (g_mint g) as [[[mx mn] rc] inf].
  apply (money_inv_frame (fold_left f (g_balances g) (empty_state (g_cfg g) (g_params g)))); [reflexivity..|].
  apply Hfold; [exact Hb|]. split; simpl; auto.
  - intros d. unfold bal, dep_total. simpl. rewrite lookup_empty. simpl. rewrite amount_of_empty, msum_empty. reflexivity.
  - split; apply map_Forall_empty.
  - intros d. unfold bank_total. simpl. rewrite msum_empty, amount_of_empty. reflexivity.
Qed.

(* a parameter set used by non-vacuity examples *)
Definition g_params_dummy : params :=
  {| p_prov_deposit := (1%N, 10); p_prov_share := 0; p_node_deposit := (1%N, 10); p_node_active := HOUR;
     p_max_gb := ∅; p_min_gb := ∅; p_max_hr := ∅; p_min_hr := ∅;
     p_max_sub_gb := 10; p_min_sub_gb := 1; p_max_sub_hr := 10; p_min_sub_hr := 1; p_node_share := 0;
     p_sub_delay := 120; p_sess_delay := 120; p_sess_proof := false;
     p_swap_enabled := true; p_swap_denom := 1%N; p_swap_approver := canon RAcc [9%N] |}.
