(* C12, the positive half at full strength where the code can carry it: for every reachable state in which no
   subscription has been bought yet (the two counters the genesis schema cannot carry are still 0), export +
   validate + re-import gives back EXACTLY the original state -- every record, every index, every counter, every
   parameter, the SDK side -- up to the emitted events (none after an import) and the transient "parameters
   modified" marks (all set after InitGenesis): the re-imported state is equal to the original with the event list
   emptied and all modified marks set, and a continuation can differ from the original chain's only through those
   marks (the first end-blocker re-applies all four price bounds).  Together with the refutation witnesses this locates the failure of C12 exactly
   in the subscription module's genesis and the session counter (known findings F5, F8). *)
From Hub Require Import Base.Prelude Base.Arith Model.Types Model.Keeper Model.Handlers Model.Hooks Model.Step Model.Genesis.
From Hub Require Import Proofs.Tactics Proofs.Frames Proofs.KeysInv Proofs.InvDefs Proofs.IndexAll Proofs.GenesisRT Proofs.GenesisReach.

Lemma state_ext (a b : state) :
  cfg a = cfg b -> bank a = bank b -> supply a = supply b -> deposits a = deposits b ->
  prov_act a = prov_act b -> prov_inact a = prov_inact b -> node_act a = node_act b -> node_inact a = node_inact b ->
  node_q a = node_q b -> node_plan a = node_plan b -> plan_count a = plan_count b -> plan_act a = plan_act b ->
  plan_inact a = plan_inact b -> plan_prov a = plan_prov b -> sub_count a = sub_count b -> subs a = subs b ->
  sub_q a = sub_q b -> sub_acc a = sub_acc b -> sub_node a = sub_node b -> sub_plan a = sub_plan b ->
  allocs a = allocs b -> payouts a = payouts b -> pay_q a = pay_q b -> pay_acc a = pay_acc b -> pay_node a = pay_node b ->
  pay_acc_node a = pay_acc_node b -> sess_count a = sess_count b -> sessions a = sessions b -> sess_q a = sess_q b ->
  sess_acc a = sess_acc b -> sess_node a = sess_node b -> sess_sub a = sess_sub b -> sess_alloc a = sess_alloc b ->
  pars a = pars b -> modified a = modified b -> swaps a = swaps b -> inflations a = inflations b ->
  mint_max a = mint_max b -> mint_min a = mint_min b -> mint_rate a = mint_rate b -> mint_inflation a = mint_inflation b ->
  now a = now b -> events a = events b -> a = b.
Proof. destruct a, b; simpl; intros; subst; reflexivity. Qed.

Section identity.
  Context (g : genesis) (ops : list op) (s : state) (Hrun : run (init g) ops = RunOk s).
  Hypothesis Hsub0 : sub_count s = 0.
  Hypothesis Hsess0 : sess_count s = 0.

  Let Hall : all_idx s := all_idx_reachable g ops s Hrun.

  Lemma no_subs : subs s = ∅.
  Proof.
    apply map_empty. intros id. destruct (subs s !! id) as [sb|] eqn:E; [|reflexivity].
    destruct (k_sub _ (ki_sub _ (ai_k _ Hall)) _ _ E) as (_ & R & _). lia.
  Qed.
  Lemma no_allocs : allocs s = ∅.
  Proof.
    apply map_empty. intros k. destruct (allocs s !! k) as [al|] eqn:E; [|reflexivity].
    destruct (k_al _ (ki_sub _ (ai_k _ Hall)) _ _ E) as (_ & _ & R). lia.
  Qed.
  Lemma no_payouts : payouts s = ∅.
  Proof.
    apply map_empty. intros k. destruct (payouts s !! k) as [po|] eqn:E; [|reflexivity].
    destruct (k_po _ (ki_sub _ (ai_k _ Hall)) _ _ E) as (_ & R). lia.
  Qed.
  Lemma no_sessions : sessions s = ∅.
  Proof.
    apply map_empty. intros k. destruct (sessions s !! k) as [x|] eqn:E; [|reflexivity].
    destruct (k_ss _ (ki_sess _ (ai_k _ Hall)) _ _ E) as (_ & R & _). lia.
  Qed.

  Lemma no_sub_indices :
    sub_q s = ∅ /\ sub_acc s = ∅ /\ sub_node s = ∅ /\ sub_plan s = ∅ /\
    pay_q s = ∅ /\ pay_acc s = ∅ /\ pay_node s = ∅ /\ pay_acc_node s = ∅.
  Proof.
    pose proof (ai_sub _ Hall) as Hix. pose proof no_subs as E1. pose proof no_payouts as E2.
    repeat split; apply elem_of_equiv_empty_L; intros x Hx.
    - destruct x as [t id]. apply (ix_subq _ Hix) in Hx as (sb & Hsb & _). rewrite E1, lookup_empty in Hsb. discriminate.
    - destruct x as [a id]. apply (ix_subacc _ Hix) in Hx as (sb & Hsb & _). rewrite E1, lookup_empty in Hsb. discriminate.
    - destruct x as [a id]. apply (ix_subnode _ Hix) in Hx as (sb & ? & ? & ? & Hsb & _). rewrite E1, lookup_empty in Hsb. discriminate.
    - destruct x as [a id]. apply (ix_subplan _ Hix) in Hx as (sb & ? & Hsb & _). rewrite E1, lookup_empty in Hsb. discriminate.
    - destruct x as [t id]. apply (ix_payq _ Hix) in Hx as (po & ? & Hpo & _). rewrite E2, lookup_empty in Hpo. discriminate.
    - destruct x as [a id]. apply (ix_payacc _ Hix) in Hx as (po & Hpo & _). rewrite E2, lookup_empty in Hpo. discriminate.
    - destruct x as [a id]. apply (ix_paynode _ Hix) in Hx as (po & Hpo & _). rewrite E2, lookup_empty in Hpo. discriminate.
    - destruct x as [[a n] id]. apply (ix_payaccnode _ Hix) in Hx as (po & ? & Hpo & _). rewrite E2, lookup_empty in Hpo. discriminate.
  Qed.

  Theorem reachable_roundtrip_identity :
    exists v, roundtrip s = Ok (v, clear_events s <| modified := all_flags |>).
  Proof.
    pose proof (reachable_genesis_defined g ops s Hrun) as Hd.
    destruct (reachable_roundtrip g ops s Hrun) as (v & s' & Hr & R).
    destruct R as (D1 & P1 & P2 & N1 & N2 & N3 & L1 & L2 & L3 & L4 & L5 & S1 & S2 & S3 & S4 & S5 & S6 & W1 & I1 & M1 & M2 & M3 & M4 & Q1 & X1 & X2 & X3 & X4).
    exists v. rewrite Hr. f_equal. f_equal.
    destruct (rt_inv s v s' Hd Hr) as [_ Es'].
    destruct (rt_subscription_lost s) as (_ & _ & _ & _ & Y1 & Y2 & Y3 & Y4 & Y5 & Y6 & Y7 & Y8).
    destruct (partial_sdk_side s v s' Hd Hr) as (K1 & K2 & K3 & K4).
    assert (K9 : modified s' = all_flags) by (rewrite Es'; reflexivity).
    rewrite <- Es' in Y1, Y2, Y3, Y4, Y5, Y6, Y7, Y8.
    destruct no_sub_indices as (Z1 & Z2 & Z3 & Z4 & Z5 & Z6 & Z7 & Z8).
    assert (Ec : sess_count s' = 0).
    { rewrite Es'. change (max_id ss_id (exp_sessions s) = 0). unfold exp_sessions.
      rewrite no_sessions. reflexivity. }
    assert (Ee : events s' = []) by (rewrite Es'; reflexivity).
    apply state_ext; simpl; try assumption; try congruence.
    - rewrite X1. symmetry. apply no_subs.
    - rewrite X2. symmetry. apply no_allocs.
    - rewrite X3. symmetry. apply no_payouts.
  Qed.

  (* ... hence every continuation behaves identically (the very same run result, events included) *)
  Corollary reachable_continuation_identical ops2 i :
    exists v s', roundtrip s = Ok (v, s') /\ run_from s' ops2 i = run_from (clear_events s <| modified := all_flags |>) ops2 i.
  Proof. destruct reachable_roundtrip_identity as (v & Hr). eexists v, _. split; [exact Hr|reflexivity]. Qed.
End identity.
