(* The governance gate of the model IS the per-key validators of the source: [Gen.ParamRules.param_rules] is regenerated on
   every run from x/*/types/params.go (for every parameter: the Go type of its value and the ordered list of its
   refuse / accept tests); this file gives the tests their meaning over the values a parameter-change proposal can carry
   and proves that [pchange_valid] -- the gate [step] applies to an [OGov] operation -- is exactly the meaning of the
   regenerated rule of the parameter each change writes.  A validator that is weakened, strengthened or re-ordered in the
   source changes the regenerated table and breaks this theorem (a new shape breaks the translator instead). *)
From Hub Require Import Base.Prelude Base.Arith Model.Types Model.Keeper Model.Handlers Model.Hooks Model.Step.
From Hub Require Import Gen.ParamRules.
From Coq Require String.

(* what a change carries, after the JSON value of the proposal has been decoded into the Go type of the parameter *)
Inductive pval := VCoin (c : coin) | VCoins (l : list coin) | VInt (z : Z) | VDec (z : Z) | VBool (b : bool) | VDenom (d : denom) | VAddr (t : taddr).

Definition pchange_key (c : pchange) : string * string :=
  match c with
  | PCProvDeposit _ => ("vpn/provider", "Deposit") | PCProvShare _ => ("vpn/provider", "StakingShare")
  | PCNodeDeposit _ => ("vpn/node", "Deposit") | PCNodeActive _ => ("vpn/node", "ActiveDuration")
  | PCMaxGb _ => ("vpn/node", "MaxGigabytePrices") | PCMinGb _ => ("vpn/node", "MinGigabytePrices")
  | PCMaxHr _ => ("vpn/node", "MaxHourlyPrices") | PCMinHr _ => ("vpn/node", "MinHourlyPrices")
  | PCMaxSubGb _ => ("vpn/node", "MaxSubscriptionGigabytes") | PCMinSubGb _ => ("vpn/node", "MinSubscriptionGigabytes")
  | PCMaxSubHr _ => ("vpn/node", "MaxSubscriptionHours") | PCMinSubHr _ => ("vpn/node", "MinSubscriptionHours")
  | PCNodeShare _ => ("vpn/node", "StakingShare")
  | PCSubDelay _ => ("vpn/subscription", "StatusChangeDelay")
  | PCSessDelay _ => ("vpn/session", "StatusChangeDelay") | PCSessProof _ => ("vpn/session", "ProofVerificationEnabled")
  | PCSwapEnabled _ => ("swap", "SwapEnabled") | PCSwapDenom _ => ("swap", "SwapDenom") | PCSwapApprover _ => ("swap", "ApproveBy")
  end%string.

Definition pchange_val (c : pchange) : pval :=
  match c with
  | PCProvDeposit c | PCNodeDeposit c => VCoin c
  | PCProvShare z | PCNodeShare z => VDec z
  | PCNodeActive z | PCSubDelay z | PCSessDelay z | PCMaxSubGb z | PCMinSubGb z | PCMaxSubHr z | PCMinSubHr z => VInt z
  | PCMaxGb l | PCMinGb l | PCMaxHr l | PCMinHr l => VCoins l
  | PCSessProof b | PCSwapEnabled b => VBool b
  | PCSwapDenom d => VDenom d
  | PCSwapApprover t => VAddr t
  end.

(* the value decodes into the Go type: int64 / time.Duration fit 64 bits, sdk.Int amounts fit 256 bits *)
Definition decodes (g : gotype) (v : pval) : bool :=
  match g, v with
  | GCoin, VCoin c => Z.abs c.2 <? MAXINT
  | GCoins, VCoins l => forallb (fun c : coin => Z.abs c.2 <? MAXINT) l
  | GDuration, VInt z | GInt64, VInt z => (- I64MAX - 1 <=? z) && (z <=? I64MAX)
  | GDec, VDec _ => true
  | GBool, VBool _ => true
  | GString, VDenom _ | GString, VAddr _ => true
  | _, _ => false
  end.

(* does a test fire?  A value decoded from JSON is never nil; a denomination / address text is never empty *)
Definition fires (t : ptest) (v : pval) : bool :=
  match t, v with
  | TIsNil, _ | TEqNil, _ | TAnyNil, _ | TEmptyString, _ => false
  | TIsNegative, VCoin c => c.2 <? 0
  | TIsNegative, VDec z => z <? 0
  | TNotValid, VCoin c => negb (denom_ok c.1 && (0 <=? c.2))                (* Coin.IsValid *)
  | TNotValid, VCoins l => negb (coins_sorted l)                             (* Coins.IsValid: sorted, unique, positive, valid denominations *)
  | TLtZero, VInt z => z <? 0
  | TEqZero, VInt z => z =? 0
  | TGtOne, VDec z => P18 <? z
  | TBadDenom, VDenom d => negb (denom_ok d)
  | TBadAccAddress, VAddr t => negb (ta_valid RAcc t)
  | _, _ => true                                                              (* a test applied to a value of another type: refuse *)
  end.

Fixpoint run_tests (ts : list (polarity * ptest)) (v : pval) : bool :=
  match ts with
  | [] => true
  | (PRefuse, t) :: r => if fires t v then false else run_tests r v
  | (PAccept, t) :: r => if fires t v then true else run_tests r v
  end.

Definition lookup_rule (k : string * string) : option (gotype * list (polarity * ptest)) :=
  match List.find (fun r : string * string * string * gotype * list (polarity * ptest) =>
                     String.eqb r.1.1.1.1 k.1 && String.eqb r.1.1.1.2 k.2) param_rules with
  | Some r => Some (r.1.2, r.2)
  | None => None
  end.

Definition rule_valid (c : pchange) : bool :=
  match lookup_rule (pchange_key c) with
  | Some (g, ts) => decodes g (pchange_val c) && run_tests ts (pchange_val c)
  | None => false
  end.

Lemma coins_sorted_decodes l : coins_sorted l = true -> forallb (fun c : coin => Z.abs c.2 <? MAXINT) l = true.
Proof.
  induction l as [|[d a] l IH]; intros H; [reflexivity|]. simpl in *.
  repeat rewrite andb_true_iff in H. destruct H as [[[_ _] A] B]. rewrite A. simpl.
  destruct l as [|[d' a'] l']; [reflexivity|]. apply andb_true_iff in B as [_ B]. exact (IH B).
Qed.

Lemma coin_rule c : coin_param_ok c =
  decodes GCoin (VCoin c) && run_tests [(PRefuse, TIsNil); (PRefuse, TIsNegative); (PRefuse, TNotValid)] (VCoin c).
Proof.
  unfold coin_param_ok. cbn [decodes run_tests fires].
  destruct (Z.leb_spec 0 c.2) as [H|H].
  - rewrite (Z.abs_eq _ H), (proj2 (Z.ltb_ge _ _) H). destruct (c.2 <? MAXINT), (denom_ok c.1); reflexivity.
  - rewrite (proj2 (Z.ltb_lt _ _) H), andb_false_r. reflexivity.
Qed.

Lemma share_rule z : share_ok z =
  decodes GDec (VDec z) && run_tests [(PRefuse, TIsNil); (PRefuse, TIsNegative); (PRefuse, TGtOne)] (VDec z).
Proof.
  unfold share_ok. cbn [decodes run_tests fires andb]. rewrite (Z.ltb_antisym 0 z), (Z.ltb_antisym z P18).
  destruct (0 <=? z), (z <=? P18); reflexivity.
Qed.

Lemma i64_rule g z : g = GDuration \/ g = GInt64 ->
  pos_i64 z = decodes g (VInt z) && run_tests [(PRefuse, TLtZero); (PRefuse, TEqZero)] (VInt z).
Proof.
  intros [-> | ->]; cbn [decodes run_tests fires]; unfold pos_i64, I64MAX;
    destruct (Z.ltb_spec 0 z), (Z.ltb_spec z 0), (Z.eqb_spec z 0), (Z.leb_spec (- 9223372036854775807 - 1) z);
    try lia; cbn [andb]; destruct (z <=? 9223372036854775807); reflexivity.
Qed.

Lemma coins_rule l : coins_param_ok l =
  decodes GCoins (VCoins l) && run_tests [(PAccept, TEqNil); (PRefuse, TAnyNil); (PRefuse, TNotValid)] (VCoins l).
Proof.
  unfold coins_param_ok. cbn [decodes run_tests fires].
  destruct (coins_sorted l) eqn:E.
  - rewrite (coins_sorted_decodes _ E), orb_true_r. reflexivity.
  - rewrite andb_false_r, orb_false_r. apply bool_decide_eq_false. intros ->. discriminate.
Qed.

Lemma denom_rule d : denom_ok d =
  decodes GString (VDenom d) && run_tests [(PRefuse, TEmptyString); (PRefuse, TBadDenom)] (VDenom d).
Proof. cbn [decodes run_tests fires andb]. destruct (denom_ok d); reflexivity. Qed.

Lemma addr_rule t : ta_valid RAcc t =
  decodes GString (VAddr t) && run_tests [(PRefuse, TEmptyString); (PRefuse, TBadAccAddress)] (VAddr t).
Proof. cbn [decodes run_tests fires andb]. destruct (ta_valid RAcc t); reflexivity. Qed.

(* looks the rule up in the table by evaluation *)
Ltac look := match goal with |- context [lookup_rule ?k] => let r := fresh "r" in set (r := lookup_rule k); vm_compute in r; subst r end.

Theorem pchange_valid_is_the_regenerated_rule : forall c, pchange_valid c = rule_valid c.
Proof.
  intros c. unfold rule_valid.
  destruct c; cbn [pchange_key pchange_val pchange_valid]; look;
    [> apply coin_rule | apply share_rule
     | apply coin_rule | apply i64_rule; auto
     | apply coins_rule | apply coins_rule | apply coins_rule | apply coins_rule
     | apply i64_rule; auto | apply i64_rule; auto | apply i64_rule; auto | apply i64_rule; auto
     | apply share_rule
     | apply i64_rule; auto
     | apply i64_rule; auto | reflexivity
     | reflexivity | apply denom_rule | apply addr_rule ].
Qed.

(* every parameter the model can change has a regenerated rule; the table has 19 rows, as many as [pchange] has constructors
   (that the rows are pairwise distinct keys is not stated) *)
Theorem every_parameter_has_a_rule : forall c, is_Some (lookup_rule (pchange_key c)).
Proof. intros c. destruct c; cbn [pchange_key]; look; eauto. Qed.
Theorem rule_table_is_covered : List.length param_rules = 19%nat.
Proof. reflexivity. Qed.
