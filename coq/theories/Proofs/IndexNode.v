(* C09 / C04: the node lease queue is exactly the set of (lease end, address) of the active nodes. *)
From Hub Require Import Base.Prelude Base.Arith Model.Types Model.Keeper Model.Handlers Model.Hooks Model.Step.
From Hub Require Import Proofs.Tactics Proofs.Effects Proofs.Frames Proofs.KeysInv Proofs.IndexSess.

(** * nodes: the lease queue *)

Definition act_iat (s : state) (a : addr) : option time := nd_inactive_at <$> node_act s !! a.
Definition idx_node (s : state) : Prop := forall t a, (t, a) ∈ node_q s <-> act_iat s a = Some t.

Lemma idx_node_frame s s' : node_q s' = node_q s -> (forall a, act_iat s' a = act_iat s a) -> idx_node s -> idx_node s'.
Proof. intros E1 E2 H t a. rewrite E1, E2. apply H. Qed.

Lemma idx_node_keeps T s s' : keeps T s s' -> touched GNode T = false -> idx_node s -> idx_node s'.
Proof.
  intros (_ & _ & _ & _ & _ & _ & K & _) Ht. rewrite Ht in K. simpl in K. destruct K as (K1 & K2 & K3).
  apply idx_node_frame; [exact K3|]. intros a. unfold act_iat. rewrite K1. reflexivity.
Qed.

Lemma act_iat_spec s a t : act_iat s a = Some t <-> exists n, node_act s !! a = Some n /\ nd_inactive_at n = t.
Proof.
  unfold act_iat. destruct (node_act s !! a) as [n|]; simpl; split.
  - intros [= <-]. eauto.
  - intros (m & [= <-] & <-). reflexivity.
  - discriminate.
  - intros (m & Hm & _). discriminate.
Qed.

Lemma set_node_act_iat s n s' a :
  set_node s n = Ok s' ->
  act_iat s' a = if bool_decide (nd_status n = SActive /\ a = nd_addr n) then Some (nd_inactive_at n) else act_iat s a.
Proof.
  unfold set_node, act_iat. destruct (nd_status n) eqn:E; try discriminate; intros [= <-]; simpl.
  - destruct (decide (a = nd_addr n)) as [->|Hne].
    + rewrite lookup_insert, bool_decide_eq_true_2 by auto. reflexivity.
    + rewrite lookup_insert_ne by congruence. rewrite bool_decide_eq_false_2 by tauto. reflexivity.
  - try rewrite bool_decide_eq_false_2 by (intros [? _]; discriminate). reflexivity.
Qed.

Lemma set_node_q s n s' : set_node s n = Ok s' -> node_q s' = node_q s.
Proof. unfold set_node. destruct (nd_status n); try discriminate; intros [= <-]; reflexivity. Qed.

Lemma idx_h_node_register s from gb hr url s' : idx_node s -> h_node_register s from gb hr url = Ok s' -> idx_node s'.
Proof.
  intros Hix H. apply h_node_register_effect in H as (s1 & _ & _ & _ & H1 & ->).
  apply (idx_node_frame s1); [reflexivity|intros a; reflexivity|].
  exact (idx_node_keeps _ _ _ (fund_pool_keeps _ _ _ _ H1) eq_refl Hix).
Qed.

Lemma idx_h_node_update_details s from gb hr url s' :
  kinv_node s -> idx_node s -> h_node_update_details s from gb hr url = Ok s' -> idx_node s'.
Proof.
  intros Hk Hix H. unfold h_node_update_details in H.
  apply rbind_ok in H as (u1 & _ & H). apply rbind_ok in H as (u2 & _ & H).
  destruct (get_node s (ta_bytes from)) as [n|] eqn:Hg; [|discriminate].
  destruct (get_node_kinv _ _ _ Hk Hg) as [Ea Hcase].
  apply rbind_ok in H as (s1 & Hs & H). injection H as <-.
  apply (idx_node_frame s); [exact (set_node_q _ _ _ Hs)| |exact Hix].
  intros a. change (act_iat s1 a = act_iat s a). rewrite (set_node_act_iat _ _ _ a Hs). simpl.
  case_bool_decide as Hc; [|reflexivity]. destruct Hc as [Hst ->]. rewrite Ea.
  destruct Hcase as [(_ & Hact & _)|(E & _)]; [|congruence]. unfold act_iat. rewrite Hact. reflexivity.
Qed.

Lemma idx_h_node_update_status s from st s' :
  kinv_node s -> idx_node s -> h_node_update_status s from st = Ok s' -> idx_node s'.
Proof.
  intros Hk Hix H. apply h_node_update_status_effect in H as (n & Hg & Hst & ->).
  destruct (get_node_kinv _ _ _ Hk Hg) as [Ea Hcase].
  intros t a. unfold act_iat. cbn [node_status_state emit node_q node_act set]. rewrite Ea.
  pose proof (Hix t a) as Hta. pose proof (fun t' => Hix t' (ta_bytes from)) as Hself. unfold act_iat in Hta, Hself.
  (* old status x new status, then the node of the message against any other *)
  destruct Hcase as [(E & E1 & _)|(E & E1 & _)]; rewrite E, E1 in *; destruct Hst as [-> | ->]; simpl; ix_sets;
    (destruct (decide (a = ta_bytes from)) as [->|Hne];
     [rewrite ?lookup_delete, ?lookup_insert, ?E1|rewrite ?lookup_delete_ne, ?lookup_insert_ne by congruence]); simpl;
    naive_solver.
Qed.

Lemma idx_node_sweep_one s0 s n s' :
  kinv_node s0 -> n ∈ all_nodes s0 ->
  (kinv_node s /\ same_dom (node_act s) (node_act s0) /\ same_dom (node_inact s) (node_inact s0)) ->
  (forall a, act_iat s a = act_iat s0 a) -> node_q s = node_q s0 ->
  node_sweep_one s n = Ok s' -> (forall a, act_iat s' a = act_iat s0 a) /\ node_q s' = node_q s0.
Proof.
  intros H0 Hn J Hiat Hq H. unfold node_sweep_one in H. apply rbind_ok in H as (s1 & Hs & H). injection H as <-. apply must_ok in Hs.
  split; [|rewrite <- Hq; exact (set_node_q _ _ _ Hs)].
  intros a. change (act_iat s1 a = act_iat s0 a). rewrite (set_node_act_iat _ _ _ a Hs). simpl.
  case_bool_decide as Hc; [|apply Hiat]. destruct Hc as [Hst ->].
  destruct (elem_of_all_nodes _ _ H0 Hn) as [[Hs0 _]|[_ Hst']]; [|congruence].
  unfold act_iat. rewrite Hs0. reflexivity.
Qed.

Lemma idx_node_expire_one s e s' : kinv_node s -> idx_node s -> node_expire_one s e = Ok s' -> idx_node s'.
Proof.
  intros Hk Hix H. unfold node_expire_one in H. destruct (get_node s e.2) as [n|] eqn:Hg; [|discriminate].
  destruct (get_node_kinv _ _ _ Hk Hg) as [Ea Hcase].
  apply rbind_ok in H as (s2 & Hs & H). injection H as <-. apply must_ok in Hs.
  intros t a. change ((t, a) ∈ node_q s2 <-> act_iat s2 a = Some t).
  rewrite (set_node_q _ _ _ Hs), (set_node_act_iat _ _ _ a Hs). simpl.
  pose proof (Hix t a) as Hta. pose proof (fun t' => Hix t' (nd_addr n)) as Hself.
  unfold act_iat in *. simpl. ix_sets.
  destruct (decide (a = nd_addr n)) as [->|Hne]; [rewrite lookup_delete|rewrite lookup_delete_ne by congruence]; simpl.
  - rewrite Ea in *. destruct Hcase as [(E & E1 & E2)|(E & E1 & E2)]; rewrite E1 in *; simpl in *; naive_solver.
  - naive_solver.
Qed.

Lemma idx_node_end_block s s' : kinv s -> idx_node s -> node_end_block s = Ok s' -> idx_node s'.
Proof.
  intros Hi Hix H. unfold node_end_block in H. apply rbind_ok in H as (s1 & Hsw & H).
  assert (H1 : kinv_node s1 /\ idx_node s1).
  { destruct (_ || _); [|injection Hsw as <-; split; [apply Hi|exact Hix]].
    set (P := fun x => (kinv_node x /\ same_dom (node_act x) (node_act s) /\ same_dom (node_inact x) (node_inact s)) /\
                       (forall a, act_iat x a = act_iat s a) /\ node_q x = node_q s).
    assert (HP : P s1).
    { eapply (rfold_inv_in P); [| |exact Hsw].
      - intros x n x' Hn (J & Hiat & Hq) Hstep. split; [eapply kinv_node_sweep_one; eauto; apply Hi|].
        eapply idx_node_sweep_one; eauto. apply Hi.
      - split; [split; [apply Hi|split; intros k; reflexivity]|]. split; [reflexivity|reflexivity]. }
    destruct HP as ((Hk1 & _) & Hiat & Hq). split; [exact Hk1|]. eapply idx_node_frame; eauto. }
  destruct H1 as [Hk1 Hix1].
  assert (G : kinv_node s' /\ idx_node s').
  { eapply (rfold_inv (fun x => kinv_node x /\ idx_node x)); [|split; eassumption|exact H].
    intros x e x' [Hkx Hixx] Hstep. split; [eapply kinv_node_expire_one|eapply idx_node_expire_one]; eauto. }
  apply G.
Qed.

(* [s0]: [s] with the subscription's queue entry removed; the active sessions of the subscription become
   pending, then the subscription and its payout are rewritten, which the session group does not see *)
Lemma idx_sess_demote s s0 id s1 sb m s' :
  kinv_sess s -> idx_sess s -> keeps [GSub] s s0 -> sub_pending_hook s0 id = Ok s1 -> (forall x, m <> Ok x) ->
  detach_payout (sub_make_pending s1 sb) sb m = Ok s' -> idx_sess s'.
Proof.
  intros Hk Hs K0 Hp Hm H. apply detach_payout_keeps in H; [|intros ? E; destruct (Hm _ E)].
  eapply (idx_sess_keeps _ s1); [exact (keeps_trans _ _ _ _ (sub_make_pending_keeps s1 sb) H)|reflexivity|].
  eapply idx_sub_pending_hook; [| |exact Hp]; [|exact (idx_sess_keeps _ _ _ K0 eq_refl Hs)].
  destruct (keeps_sess _ _ _ K0 eq_refl) as (E0 & E1 & _). exact (kinv_sess_frame _ _ E1 E0 Hk).
Qed.

Lemma idx_sess_h_sub_cancel s from id s' : kinv_sess s -> idx_sess s -> h_sub_cancel s from id = Ok s' -> idx_sess s'.
Proof.
  intros Hk Hs H. apply h_sub_cancel_effect in H as (sb & s1 & _ & _ & _ & Hp & H).
  refine (idx_sess_demote s _ _ _ _ _ _ Hk Hs _ Hp _ H); [keeps_conv|intros x E; discriminate E].
Qed.

Lemma idx_sess_sub_expire_one s e s' : kinv_sess s -> idx_sess s -> sub_expire_one s e = Ok s' -> idx_sess s'.
Proof.
  intros Hk Hs H. apply sub_expire_one_effect in H as (sb & _ & [(_ & s1 & Hp & H)|(_ & s1 & Hr & H)]).
  - refine (idx_sess_demote s _ _ _ _ _ _ Hk Hs _ Hp _ H); [keeps_conv|intros x E; discriminate E].
  - apply sub_refund_keeps in Hr. apply sub_delete_payout_keeps in H. pose proof (sub_cleanup_keeps s1 sb).
    assert (K : keeps [GBank; GDep; GSub] s s') by keeps_chain. exact (idx_sess_keeps _ _ _ K eq_refl Hs).
Qed.

Lemma idx_sess_end_block s s' : kinv s -> idx_sess s -> end_block s = Ok s' -> idx_sess s'.
Proof.
  intros Hi Hs H. apply end_block_effect in H as (s1 & s2 & H1 & H2 & H3).
  pose proof (kinv_node_end_block _ _ Hi H1) as Hi1.
  pose proof (idx_sess_keeps _ _ _ (node_end_block_keeps _ _ H1) eq_refl Hs) as Hs1.
  assert (G2 : kinv s2 /\ idx_sess s2).
  { unfold session_end_block in H2. eapply (rfold_inv (fun y => kinv y /\ idx_sess y)); [|split; eassumption|exact H2].
    intros a e b [Ha Hb] Hstep. split; [eapply kinv_session_expire_one; eauto|eapply idx_session_expire_one; eauto; apply Ha]. }
  assert (G3 : kinv s' /\ idx_sess s').
  { unfold sub_end_block in H3. eapply (rfold_inv (fun y => kinv y /\ idx_sess y)); [|exact G2|exact H3].
    intros a e b [Ha Hb] Hstep. split; [eapply kinv_sub_expire_one; eauto|eapply idx_sess_sub_expire_one; eauto; apply Ha]. }
  apply G3.
Qed.

(** * one operation: sessions and nodes *)

Theorem idx_sess_node_step s o s' : kinv s -> idx_sess s -> idx_node s -> step s o = OOk s' -> idx_sess s' /\ idx_node s'.
Proof.
  intros Hi Hs Hn H. apply step_inv in H.
  pose proof (kinv_clear _ Hi) as Hi0.
  assert (Hs0 : idx_sess (clear_events s)) by (eapply (idx_sess_frame s); eauto).
  assert (Hn0 : idx_node (clear_events s)) by (eapply (idx_node_frame s); eauto).
  destruct o.
  - apply begin_block_keeps in H. assert (K : keeps [GBank; GDep; GSub; GMint; GNow] s s') by keeps_chain.
    split; [exact (idx_sess_keeps _ _ _ K eq_refl Hs)|exact (idx_node_keeps _ _ _ K eq_refl Hn)].
  - destruct H as [_ H].
    (* a message that does not touch the session (node) group leaves [idx_sess] ([idx_node]) alone *)
    pose proof (handle_frame _ _ _ H) as Hk. split.
    + destruct m; simpl in H; try (eapply idx_sess_keeps; [exact Hk|reflexivity|exact Hs0]).
      * eapply idx_sess_h_sub_cancel; eauto; apply Hi0.
      * eapply idx_h_sess_start; eauto; apply Hi0.
      * eapply idx_h_sess_update; eauto; apply Hi0.
      * eapply idx_h_sess_end; eauto; apply Hi0.
    + destruct m; simpl in H; try (eapply idx_node_keeps; [exact Hk|reflexivity|exact Hn0]).
      * eapply idx_h_node_register; eauto.
      * eapply idx_h_node_update_details; eauto; apply Hi0.
      * eapply idx_h_node_update_status; eauto; apply Hi0.
  - destruct H as [_ ->]. apply (fold_left_inv (fun y => idx_sess y /\ idx_node y)); [|split; assumption].
    intros y c [A B]. pose proof (apply_pchange_keeps y c). split; [eapply idx_sess_keeps|eapply idx_node_keeps]; eauto.
  - destruct H as (se & H & ->). split.
    + eapply (idx_sess_frame se); try reflexivity. eapply idx_sess_end_block; eauto.
    + apply end_block_effect in H as (s1 & s2 & H1 & H2 & H3). pose proof (idx_node_end_block _ _ Hi0 Hn0 H1) as Hn1.
      apply session_end_block_keeps in H2. apply sub_end_block_keeps in H3.
      assert (K : keeps [GBank; GDep; GSub; GSess; GPar] s1 (se <| modified := no_flags |>)) by keeps_chain.
      exact (idx_node_keeps _ _ _ K eq_refl Hn1).
Qed.
