(* C02, part 3: corollaries of the escrow ledger invariant -- every hourly payout, every session
   settlement and the refund at removal move exactly the advertised amount out of the owner's
   deposit record and lower the unsettled part of that very subscription by the same amount;
   nobody is charged beyond the deposit; no debit can draw on another subscription's share
   (hence none can fail for lack of recorded funds).  With a non-vacuity example. *)
From Hub Require Import Base.Prelude Base.Arith Model.Types Model.Keeper Model.Handlers Model.Hooks Model.Step.
From Hub Require Import Proofs.Tactics Proofs.Effects Proofs.Frames Proofs.Money Proofs.KeysInv.
From Hub Require Import Proofs.Pricing Proofs.InvDefs Proofs.Ledger1 Proofs.Ledger2.

(** * never overcharged *)

Theorem never_overcharged s id sb n g h dep :
  kinv s -> idx_sub s -> ledger_inv s -> subs s !! id = Some sb -> sb_kind sb = KNode n g h dep ->
  forall a d, 0 <= unsettled s a d sb <= dep.2.
Proof.
  intros Hi Hx Hl Hsb Hkd a d. pose proof (ki_sub _ Hi) as Hk. pose proof (idx_lstruct _ Hx) as Hst.
  split; [eapply lg_nonneg; eauto|].
  destruct (k_sub _ Hk _ _ Hsb) as (Eid & _).
  pose proof (ls_kind _ Hst _ _ Hsb) as Hko. rewrite Hkd in Hko. simpl in Hko. destruct Hko as [Hgh Hd].
  unfold unsettled. rewrite Hkd, Eid. case_bool_decide; [|lia].
  destruct (h =? 0) eqn:Eh.
  - apply Z.eqb_eq in Eh. destruct (allocs s !! (id, sb_addr sb)) as [al|] eqn:Hal; [|lia].
    destruct Hgh as [[-> ?]|[Hg _]]; [lia|].
    destruct (lg_alloc _ Hl _ _ _ _ _ _ _ Hsb Hkd Eh Hal) as (_ & ? & _).
    assert (0 <= afb (Z.quot dep.2 g) (al_used al)) by (apply afb_nonneg; [apply quot_nonneg; lia|lia]). lia.
  - apply Z.eqb_neq in Eh. destruct (payouts s !! id) as [po|] eqn:Hp; [|lia].
    destruct (lg_price _ Hl _ _ _ _ _ _ _ Hsb Hkd Eh Hp) as (Epr & Hh).
    rewrite Epr. simpl. destruct Hgh as [[_ Hh0]|[_ ?]]; [|lia]. apply quot_mul_le; lia.
Qed.

(* what has been paid out of a node subscription's deposit so far *)
Definition paid_so_far (s : state) (sb : subscription) : Z :=
  match sb_kind sb with
  | KNode _ _ _ dep => dep.2 - unsettled s (sb_addr sb) dep.1 sb
  | KPlan _ _ => 0
  end.

Corollary paid_within_deposit s id sb n g h dep :
  kinv s -> idx_sub s -> ledger_inv s -> subs s !! id = Some sb -> sb_kind sb = KNode n g h dep ->
  0 <= paid_so_far s sb <= dep.2.
Proof.
  intros Hk Hx Hl Hsb Hkd. unfold paid_so_far. rewrite Hkd.
  pose proof (never_overcharged s id sb n g h dep Hk Hx Hl Hsb Hkd (sb_addr sb) dep.1). lia.
Qed.

(** * an hourly payout is exact *)

Theorem payout_exact s e s' po sb :
  kinv s -> idx_sub s -> ledger_inv s -> e ∈ pay_q s -> payout_step s e = Ok s' ->
  payouts s !! e.2 = Some po -> subs s !! e.2 = Some sb ->
  let amt := (po_price po).2 in
  let d0 := (po_price po).1 in
  0 <= amt /\ po_addr po = sb_addr sb /\
  (* the subscriber's record in the price's denomination, and nothing else, goes down by the hourly price *)
  (forall a d, damt s' a d = damt s a d - dlt (po_addr po) d0 amt a d) /\
  (* so does the unsettled part of the paid subscription *)
  (forall a d, unsettled s' a d sb = unsettled s a d sb - dlt (po_addr po) d0 amt a d) /\
  (* every other subscription is as it was *)
  subs s' = subs s /\
  (forall id' sb', id' <> e.2 -> subs s !! id' = Some sb' -> forall a d, unsettled s' a d sb' = unsettled s a d sb') /\
  (* the money goes to the fee collector and to the node, without loss *)
  exists fee, 0 <= fee <= amt /\
    forall x d', bal s' x d' = bal s x d' + moved (c_deposit (cfg s)) (c_feecoll (cfg s)) d0 fee x d'
                                          + moved (c_deposit (cfg s)) (po_node po) d0 (amt - fee) x d'.
Proof.
  intros Hi Hx Hl He H Hp Hsb. cbv zeta. pose proof (ki_sub _ Hi) as Hk. pose proof (idx_lstruct _ Hx) as Hst.
  destruct (payout_step_ledger _ _ _ H) as (po0 & po' & Hp0 & Hd & Hsubs & Hal & Hpo & Epr & Ehr & _).
  rewrite Hp in Hp0. injection Hp0 as <-.
  destruct (payout_sub _ _ _ Hk Hst Hl Hp) as (sb2 & g & h & dep & Hsb2 & Hkd & Hhpos & Hdep & Esid & Eid & Eaddr & Eprice & Hhr).
  rewrite Hsb in Hsb2. injection Hsb2 as <-. assert (Hh : h <> 0) by lia.
  pose proof (quot_nonneg dep.2 h Hdep Hhpos) as Hq.
  split; [rewrite Eprice; exact Hq|]. split; [exact Eaddr|]. split; [exact Hd|]. split; [|split; [exact Hsubs|split]].
  - apply (unsettled_hour_paid s s' sb _ g h dep po po' Hkd Hh); try assumption.
    + rewrite Esid. exact Hp.
    + rewrite Esid, Hpo, Eid. apply lookup_insert.
    + rewrite Eprice. reflexivity.
  - intros id' sb' Hne Hsb'. apply (unsettled_elsewhere s s' id' sb' Hk Hsb'); [rewrite Hal; reflexivity|].
    rewrite Hpo, Eid. apply lookup_insert_ne. congruence.
  - destruct (payout_split _ _ _ H) as (po2 & fee & Hp2 & _ & Hfee & Hbal).
    rewrite Hp in Hp2. injection Hp2 as <-. exists fee. split; [exact Hfee|exact Hbal].
Qed.

(** * the settlement of a session on a per-gigabyte subscription is exact *)

Theorem settlement_exact s sid acc nd b s' x sb n g dep :
  kinv s -> idx_sub s -> ledger_inv s -> 0 <= b -> session_inactive_hook s sid acc nd b = Ok s' ->
  sessions s !! sid = Some x -> subs s !! ss_sub x = Some sb -> sb_kind sb = KNode n g 0 dep ->
  exists al used',
    acc = sb_addr sb /\ allocs s !! (ss_sub x, acc) = Some al /\
    used' = (if al_granted al - al_used al <? b then al_granted al else al_used al + b) /\
    let amt := afb (Z.quot dep.2 g) used' - afb (Z.quot dep.2 g) (al_used al) in
    0 <= amt /\
    (forall a d, damt s' a d = damt s a d - dlt acc dep.1 amt a d) /\
    (forall a d, unsettled s' a d sb = unsettled s a d sb - dlt acc dep.1 amt a d) /\
    subs s' = subs s /\
    (forall id' sb', id' <> ss_sub x -> subs s !! id' = Some sb' -> forall a d, unsettled s' a d sb' = unsettled s a d sb').
Proof.
  intros Hi Hx Hl Hb H Hses Hsb Hkd. pose proof (ki_sub _ Hi) as Hk. pose proof (idx_lstruct _ Hx) as Hst.
  pose proof (ls_kind _ Hst _ _ Hsb) as Hko. rewrite Hkd in Hko. simpl in Hko. destruct Hko as [Hgh Hdep].
  assert (Hg : 0 < g) by lia.
  destruct (k_sub _ Hk _ _ Hsb) as (Esid & _).
  destruct (settlement_spec _ _ _ _ _ _ _ _ _ _ _ Hk Hst Hl Hb H Hses Hsb Hkd Hg)
    as (al & Eacc & Hal & Hub & Hdiff0 & F1 & F2 & F3 & Hd).
  exists al, (clamp_used al b). subst acc. split; [reflexivity|]. split; [rewrite <- Esid; exact Hal|]. split; [reflexivity|].
  cbv zeta. split; [exact Hdiff0|]. split; [exact Hd|]. split; [|split; [exact F1|]].
  - apply (unsettled_settled s s' sb n g dep al _ Hkd Hal). rewrite F3. apply lookup_insert.
  - intros id' sb' Hne Hsb'. apply (unsettled_elsewhere s s' id' sb' Hk Hsb'); [|rewrite F2; reflexivity].
    rewrite F3, Esid. apply lookup_insert_ne. congruence.
Qed.

(** * removal: the refund is exactly the unsettled part, so paid + refund = deposit *)

Theorem removal_refund_exact s e s' sb :
  kinv s -> idx_sub s -> ledger_inv s -> sub_expire_one s e = Ok s' ->
  subs s !! e.2 = Some sb -> sb_status sb <> SActive ->
  (* the owner's record is debited by exactly the unsettled part ... *)
  (forall a d, damt s' a d = damt s a d - unsettled s a d sb) /\
  (* ... the records of other accounts do not change *)
  (forall a d, a <> sb_addr sb -> damt s' a d = damt s a d) /\
  (* the subscription is gone, every other one is as it was *)
  subs s' = delete e.2 (subs s) /\
  (forall id' sb', id' <> e.2 -> subs s !! id' = Some sb' -> forall a d, unsettled s' a d sb' = unsettled s a d sb') /\
  (* the subscriber receives the refund: paid so far + refund = deposit, 0 <= refund <= deposit *)
  (forall n g h dep, sb_kind sb = KNode n g h dep ->
     let refund := unsettled s (sb_addr sb) dep.1 sb in
     paid_so_far s sb + refund = dep.2 /\ 0 <= refund <= dep.2 /\
     forall x d', bal s' x d' = bal s x d' + moved (c_deposit (cfg s)) (sb_addr sb) dep.1 refund x d').
Proof.
  intros Hi Hx Hl H Hsb Hst. pose proof (ki_sub _ Hi) as Hk.
  destruct (sub_removal_spec _ _ _ _ Hk (idx_lstruct _ Hx) Hl H Hsb Hst) as (D & S & A & P & B).
  split; [exact D|]. split; [intros a d Hne; rewrite D, unsettled_other by congruence; lia|]. split; [exact S|]. split.
  - intros id' sb' Hne Hsb'. exact (unsettled_elsewhere s s' id' sb' Hk Hsb' (A _ _ Hne) (P _ Hne)).
  - intros n g h dep Hkd. cbv zeta.
    pose proof (never_overcharged s e.2 sb n g h dep Hi Hx Hl Hsb Hkd (sb_addr sb) dep.1) as Hno.
    split; [unfold paid_so_far; rewrite Hkd; lia|]. split; [exact Hno|exact (B _ _ _ _ Hkd)].
Qed.

(** * no cross-subsidy: every hook-side debit is covered by the very subscription being processed *)

(* the two debits of an hourly payout (fee, then node) never fail for lack of recorded funds *)
Theorem payout_debits_covered s e po :
  kinv s -> idx_sub s -> ledger_inv s -> e ∈ pay_q s -> payouts s !! e.2 = Some po ->
  forall fee, 0 <= fee <= (po_price po).2 ->
  let s1 := s <| pay_q ::= fun q => q ∖ {[ (po_next_at po, po_id po) ]} |> in
  (fee <> 0 -> exists c, dep_remaining s1 (po_addr po) (po_price po).1 fee = Ok c) /\
  (forall s2, z_dep_to_module s1 (po_addr po) (c_feecoll (cfg s1)) ((po_price po).1, fee) = Ok s2 ->
     (po_price po).2 - fee <> 0 ->
     exists c, dep_remaining s2 (po_addr po) (po_price po).1 ((po_price po).2 - fee) = Ok c).
Proof.
  intros Hi Hx Hl He Hp fee Hfee s1. pose proof (ki_sub _ Hi) as Hk. pose proof (idx_lstruct _ Hx) as Hst.
  pose proof (payq_hours_pos s e po Hx He Hp) as Hpos.
  destruct (payout_sub _ _ _ Hk Hst Hl Hp) as (sb & g & h & dep & Hsb & Hkd & Hhpos & Hdep & Esid & _ & Eaddr & Eprice & Hhr).
  assert (Hun : (po_price po).2 <= unsettled s (po_addr po) (po_price po).1 sb).
  { pose proof (quot_nonneg dep.2 h Hdep Hhpos).
    rewrite (unsettled_hourly s _ _ sb _ g h dep po Hkd) by (rewrite ?Esid; auto; lia).
    rewrite bool_decide_eq_true_2 by (rewrite Eprice; auto). nia. }
  destruct (ledger_covers2 s (po_addr po) (po_price po).1 e.2 sb fee ((po_price po).2 - fee) Hl Hsb) as [C1 C2]; try lia.
  split.
  - intros Hne. exact (C1 Hne).
  - intros s2 Hs2 Hne. apply C2; [|exact Hne]. intros x d'.
    rewrite (z_dep_to_module_damt _ _ _ _ _ Hs2). reflexivity.
Qed.

Theorem settlement_debits_covered s sid acc x sb n g dep al b :
  kinv s -> idx_sub s -> ledger_inv s -> 0 <= b ->
  sessions s !! sid = Some x -> subs s !! ss_sub x = Some sb -> sb_kind sb = KNode n g 0 dep ->
  allocs s !! (ss_sub x, acc) = Some al ->
  let used' := (if al_granted al - al_used al <? b then al_granted al else al_used al + b) in
  let amt := afb (Z.quot dep.2 g) used' - afb (Z.quot dep.2 g) (al_used al) in
  forall s1, deposits s1 = deposits s ->
  forall fee, 0 <= fee <= amt ->
  (fee <> 0 -> exists c, dep_remaining s1 acc dep.1 fee = Ok c) /\
  (forall s2 m, z_dep_to_module s1 acc m (dep.1, fee) = Ok s2 ->
     amt - fee <> 0 -> exists c, dep_remaining s2 acc dep.1 (amt - fee) = Ok c).
Proof.
  intros Hi Hx Hl Hb Hses Hsb Hkd Hal used' amt s1 Hd1 fee Hfee.
  pose proof (ki_sub _ Hi) as Hk. pose proof (idx_lstruct _ Hx) as Hst.
  destruct (metered_alloc _ _ _ _ _ _ _ _ Hk Hst Hl Hsb Hkd Hal) as (-> & Esid & _ & _ & Hg & Hdep & Egr & Hu0 & Hu1).
  assert (Hub : al_used al <= used' <= al_granted al) by (unfold used'; destruct (_ <? b) eqn:E; lia).
  assert (Hfull : afb (Z.quot dep.2 g) used' <= dep.2) by (apply afb_within; lia).
  assert (Hun : amt <= unsettled s (sb_addr sb) dep.1 sb).
  { rewrite (unsettled_metered s _ _ sb n g dep al Hkd) by (rewrite Esid; exact Hal).
    rewrite bool_decide_eq_true_2 by auto. unfold amt. lia. }
  destruct (ledger_covers2 s (sb_addr sb) dep.1 (ss_sub x) sb fee (amt - fee) Hl Hsb) as [C1 C2]; try lia.
  assert (Hds : forall y d', damt s1 y d' = damt s y d') by (apply damt_frame; exact Hd1).
  split.
  - intros Hne. destruct (C1 Hne) as [c Hc]. exists c. unfold dep_remaining in *. rewrite Hd1. exact Hc.
  - intros s2 m Hs2 Hne. apply C2; [|exact Hne]. intros y d'.
    rewrite (z_dep_to_module_damt _ _ _ _ _ Hs2). rewrite Hds. reflexivity.
Qed.

Theorem refund_covered s id sb n g h dep :
  ledger_inv s -> subs s !! id = Some sb -> sb_kind sb = KNode n g h dep ->
  let refund := unsettled s (sb_addr sb) dep.1 sb in
  refund <> 0 -> exists c, dep_remaining s (sb_addr sb) dep.1 refund = Ok c.
Proof.
  intros Hl Hsb Hkd refund Hne. apply (ledger_covers s _ _ id sb); [exact Hl|exact Hsb|].
  pose proof (lg_nonneg _ Hl _ _ (sb_addr sb) dep.1 Hsb). unfold refund in *. lia.
Qed.

(* one account's escrow is never spent on another's obligations: a debit of account [a] changes no
   other account's record (all three hook-side debits go through these two keeper functions) *)
Theorem debit_own_record_only s from m c s' :
  z_dep_to_module s from m c = Ok s' \/ z_dep_to_account s from m c = Ok s' ->
  forall a d, a <> from -> damt s' a d = damt s a d.
Proof.
  intros [H|H] a d Hne; [rewrite (z_dep_to_module_damt _ _ _ _ _ H)|rewrite (z_dep_to_account_damt _ _ _ _ _ H)];
    unfold dlt; rewrite bool_decide_eq_false_2 by (intros [? _]; contradiction); lia.
Qed.

(** * non-vacuity: a reachable state with two live pay-as-you-go subscriptions of one account in
      one denomination -- a per-gigabyte one with 500000001 bytes settled (charge 351 of 1400, rounded
      up from 350.0000007) and an hourly one with one of three payouts made (11 of 33) -- on which
      the deposit record (1071) equals the sum of the two unsettled parts (1049 + 22) *)

Definition ledger_ex_cfg : config :=
  {| c_deposit := [1%N]; c_feecoll := [2%N]; c_distr := [3%N]; c_swap := [4%N];
     c_blocked := [[1%N]; [2%N]; [3%N]; [4%N]] |}.
Definition ledger_ex_genesis : genesis :=
  {| g_cfg := ledger_ex_cfg; g_balances := [([9%N], (1%N, 100000)); ([5%N], (1%N, 100))];
     g_params := g_params_dummy <| p_node_share := 2 * 10 ^ 17 |>;
     g_inflations := []; g_mint := (0, 0, 0, 0); g_time := 0 |}.
Definition ledger_ex_ops : list op :=
  let acc9 := {| ta_role := RAcc; ta_upper := false; ta_bytes := [9%N] |} in
  let acc5 := {| ta_role := RAcc; ta_upper := false; ta_bytes := [5%N] |} in
  let node5 := {| ta_role := RNode; ta_upper := false; ta_bytes := [5%N] |} in
  [OBegin 10;
   OTx (MNodeRegister acc5 (Some [(1%N, 700)]) (Some [(1%N, 11)]) "u" true);
   OTx (MNodeUpdateStatus node5 SActive);
   OTx (MNodeSubscribe acc9 node5 2 0 1%N);          (* subscription 1: 2 GB at 700/GB, deposit 1400 *)
   OTx (MNodeSubscribe acc9 node5 0 3 1%N);          (* subscription 2: 3 hours at 11/h, deposit 33 *)
   OTx (MSessStart acc9 1 node5);
   OTx (MSessUpdate node5 1 300000000 200000001 60 None true);
   OTx (MSessEnd acc9 1 0);
   OEnd;
   OBegin 200;                                       (* first hourly payout of subscription 2 *)
   OEnd].                                            (* the session is settled: 500000001 bytes *)

Example ledger_nonvacuous :
  match run (init ledger_ex_genesis) ledger_ex_ops with
  | RunOk s =>
      damt s [9%N] 1%N = 1071 /\ ledger_total s [9%N] 1%N = 1071 /\
      map (fun kv => unsettled s [9%N] 1%N kv.2) (map_to_list (subs s)) = [1049; 22] /\
      (al_used <$> allocs s !! (1, [9%N])) = Some 500000001 /\
      ((fun po => (po_price po, po_hours po)) <$> payouts s !! 2) = Some ((1%N, 11), 2)
  | _ => False
  end.
Proof. vm_compute. repeat split; reflexivity. Qed.
