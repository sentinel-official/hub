(* C09: all index invariants together, for every reachable state. *)
From Hub Require Import Base.Prelude Base.Arith Model.Types Model.Keeper Model.Handlers Model.Hooks Model.Step.
From Hub Require Import Proofs.Tactics Proofs.Frames Proofs.KeysInv Proofs.IndexSess Proofs.IndexNode Proofs.InvDefs
  Proofs.IndexSub Proofs.IndexSub2 Proofs.IndexPlan.

Record all_idx (s : state) : Prop := {
  ai_k : kinv s; ai_sess : idx_sess s; ai_node : idx_node s; ai_sub : idx_sub s; ai_plan : idx_plan s }.

Lemma idx_sess_init g : idx_sess (init g).
Proof.
  assert (H0 : idx_sess (empty_state (g_cfg g) (g_params g))).
  { split; simpl; intros; (split; [set_solver|]); intros (x & Hx & _); rewrite lookup_empty in Hx; discriminate. }
  exact (idx_sess_keeps _ _ _ (init_keeps g) eq_refl H0).
Qed.

Lemma idx_node_init g : idx_node (init g).
Proof.
  assert (H0 : idx_node (empty_state (g_cfg g) (g_params g))).
  { intros t a. unfold act_iat. simpl. rewrite lookup_empty. simpl. split; [set_solver|discriminate]. }
  exact (idx_node_keeps _ _ _ (init_keeps g) eq_refl H0).
Qed.

Theorem all_idx_init g : all_idx (init g).
Proof. split; [apply kinv_init|apply idx_sess_init|apply idx_node_init|apply idx_sub_init|apply idx_plan_init]. Qed.

Theorem all_idx_step s o s' : all_idx s -> step s o = OOk s' -> all_idx s'.
Proof.
  intros [A B C D E] H. destruct (idx_sess_node_step _ _ _ A B C H) as [B' C'].
  split; [eapply kinv_step; eauto|exact B'|exact C'|eapply idx_sub_step; eauto|eapply idx_plan_step; eauto].
Qed.

Lemma all_idx_clear s : all_idx s -> all_idx (clear_events s).
Proof.
  intros [A B C D E]. split; [apply kinv_clear; exact A|eapply idx_sess_frame; [..|exact B]; reflexivity
    |eapply idx_node_frame; [..|exact C]; reflexivity|eapply idx_sub_frame; [..|exact D]; reflexivity|apply idx_plan_clear; exact E].
Qed.

Theorem all_idx_run ops : forall s i s', all_idx s -> run_from s ops i = RunOk s' -> all_idx s'.
Proof.
  intros s i s'. apply run_from_inv; [intros ? ? ?; apply all_idx_step|apply all_idx_clear].
Qed.

Theorem all_idx_reachable g ops s' : run (init g) ops = RunOk s' -> all_idx s'.
Proof. intros H. eapply all_idx_run; [apply all_idx_init|exact H]. Qed.
