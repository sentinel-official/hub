(* C02, part 2: every operation of the model preserves the escrow ledger invariant. *)
From Hub Require Import Base.Prelude Base.Arith Model.Types Model.Keeper Model.Handlers Model.Hooks Model.Step.
From Hub Require Import Proofs.Tactics Proofs.Sorting Proofs.Effects Proofs.Frames Proofs.Money Proofs.KeysInv Proofs.ArithThm.
From Hub Require Import Proofs.Quota Proofs.Pricing Proofs.InvDefs Proofs.IndexSub Proofs.Ledger1.

(** * what the ledger reads of an hourly payout *)

Lemma payout_step_ledger s e s' :
  payout_step s e = Ok s' ->
  exists po po',
    payouts s !! e.2 = Some po /\
    (forall x d', damt s' x d' = damt s x d' - dlt (po_addr po) (po_price po).1 (po_price po).2 x d') /\
    subs s' = subs s /\ allocs s' = allocs s /\
    payouts s' = <[po_id po := po']> (payouts s) /\
    po_price po' = po_price po /\ po_hours po' = po_hours po - 1 /\
    pay_q s ∖ {[ (po_next_at po, po_id po) ]} ⊆ pay_q s'.
Proof.
  intros H. destruct (payout_step_effect _ _ _ H) as (po & fee & s2 & s3 & Hp & _ & _ & H2 & H3 & ->).
  match type of H2 with z_dep_to_module ?t _ _ _ = _ => remember t as s1 eqn:E1 end.
  assert (F : (bank s1 = bank s /\ deposits s1 = deposits s /\ cfg s1 = cfg s) /\ subs s1 = subs s /\ allocs s1 = allocs s /\
              payouts s1 = payouts s /\ pay_q s1 = pay_q s ∖ {[ (po_next_at po, po_id po) ]}) by (rewrite E1; repeat split).
  clear E1. destruct F as ((F1 & F2 & F3) & F4 & F5 & F6 & F7).
  destruct (pay_transfers s _ _ _ _ _ _ _ _ _ H2 H3 F1 F2 F3) as [T1 T2].
  destruct (keeps_sub _ _ _ (keeps_trans _ _ _ _ (z_dep_to_module_keeps _ _ _ _ _ H2) (z_dep_to_account_keeps _ _ _ _ _ H3)) eq_refl)
    as (_ & K2 & _ & _ & _ & _ & K7 & K8 & K9 & _). clear H2 H3.
  rewrite F4 in K2. rewrite F5 in K7. rewrite F6 in K8. rewrite F7 in K9.
  exists po, (payout_next po). split; [exact Hp|]. split.
  { intros x d'. rewrite (pay_damt _ _ _ (payout_state s3 po fee) _ _ _ _ _ _ _ T1 T2 eq_refl).
    replace (fee + ((po_price po).2 - fee)) with (po_price po).2 by lia. reflexivity. }
  split; [exact K2|]. split; [exact K7|]. split; [exact (f_equal _ K8)|]. split; [reflexivity|]. split; [reflexivity|].
  rewrite <- K9. unfold payout_state. simpl. destruct (0 <? _); [apply union_subseteq_l|reflexivity].
Qed.

Lemma sub_ok_plan s id sb p dn : sb_kind sb = KPlan p dn -> sub_ok s id sb.
Proof.
  intros E. split; [|split].
  - intros a d. rewrite (unsettled_plan s a d sb p dn E). lia.
  - intros n g h dep al E'. rewrite E in E'. discriminate.
  - intros n g h dep po E'. rewrite E in E'. discriminate.
Qed.

Lemma sub_ok_hourly s id sb n g h dep po :
  sb_kind sb = KNode n g h dep -> sb_id sb = id -> 0 < h -> 0 <= dep.2 -> payouts s !! id = Some po ->
  po_price po = (dep.1, Z.quot dep.2 h) -> 0 <= po_hours po <= h -> sub_ok s id sb.
Proof.
  intros E Eid Hh Hd Hp Epr Hhr. pose proof (quot_nonneg dep.2 h Hd Hh). split; [|split].
  - intros a d. rewrite (unsettled_hourly s a d sb n g h dep po E) by (rewrite ?Eid; auto; lia).
    rewrite Epr. cbn [snd]. case_bool_decide; nia.
  - intros n' g' h' dep' al E' Eh. rewrite E in E'. injection E' as _ _ <- _. lia.
  - intros n' g' h' dep' po' E' _ Hp'. rewrite Hp in Hp'. injection Hp' as <-. rewrite E in E'. injection E' as _ _ <- <-.
    auto.
Qed.

Lemma sub_ok_metered s id sb n g dep al :
  sb_kind sb = KNode n g 0 dep -> sb_id sb = id -> allocs s !! (id, sb_addr sb) = Some al ->
  al_granted al = GB * g -> 0 <= al_used al <= al_granted al -> afb (Z.quot dep.2 g) (al_used al) <= dep.2 ->
  sub_ok s id sb.
Proof.
  intros E Eid Hal Egr Hu Hfull. split; [|split].
  - intros a d. rewrite (unsettled_metered s a d sb n g dep al E) by (rewrite Eid; exact Hal). case_bool_decide; lia.
  - intros n' g' h' dep' al' E' _ Hal'. rewrite Hal in Hal'. injection Hal' as <-. rewrite E in E'. injection E' as _ <- _ _.
    auto.
  - intros n' g' h' dep' po E' Eh. rewrite E in E'. injection E' as _ _ <- _. contradiction.
Qed.

Lemma unsettled_hour_paid s s' sb n g h dep po po' :
  sb_kind sb = KNode n g h dep -> h <> 0 -> payouts s !! sb_id sb = Some po -> payouts s' !! sb_id sb = Some po' ->
  po_price po' = po_price po -> po_hours po' = po_hours po - 1 -> po_addr po = sb_addr sb -> (po_price po).1 = dep.1 ->
  forall a d, unsettled s' a d sb = unsettled s a d sb - dlt (po_addr po) (po_price po).1 (po_price po).2 a d.
Proof.
  intros Hkd Hh Hp Hp' Epr Ehr Eaddr Ed a d.
  rewrite (unsettled_hourly_dlt s a d sb n g h dep po Hkd Hh Hp), (unsettled_hourly_dlt s' a d sb n g h dep po' Hkd Hh Hp').
  rewrite Epr, Ehr, Eaddr, Ed. unfold dlt. case_bool_decide; lia.
Qed.

Lemma unsettled_settled s s' sb n g dep al used' :
  sb_kind sb = KNode n g 0 dep -> allocs s !! (sb_id sb, sb_addr sb) = Some al ->
  allocs s' !! (sb_id sb, sb_addr sb) = Some (al <| al_used := used' |>) ->
  forall a d, unsettled s' a d sb =
    unsettled s a d sb - dlt (sb_addr sb) dep.1 (afb (Z.quot dep.2 g) used' - afb (Z.quot dep.2 g) (al_used al)) a d.
Proof.
  intros Hkd Hal Hal' a d.
  rewrite (unsettled_metered_dlt s a d sb n g dep al Hkd Hal), (unsettled_metered_dlt s' a d sb n g dep _ Hkd Hal').
  simpl. unfold dlt. case_bool_decide; lia.
Qed.

Lemma ledger_inv_change_plan s s' id0 :
  kinv_sub s -> ledger_inv s ->
  (forall i, i <> id0 -> subs s' !! i = subs s !! i) ->
  (forall i a, i <> id0 -> allocs s' !! (i, a) = allocs s !! (i, a)) ->
  (forall i, i <> id0 -> payouts s' !! i = payouts s !! i) ->
  deposits s' = deposits s ->
  (forall sb, subs s !! id0 = Some sb \/ subs s' !! id0 = Some sb -> exists p dn, sb_kind sb = KPlan p dn) ->
  ledger_inv s'.
Proof.
  intros Hk Hl Hs Ha Hp Hd Hpl. apply (ledger_inv_change s s' id0 (fun a d => 0)); auto.
  - intros a d. rewrite (damt_frame s s' Hd). lia.
  - intros a d.
    assert (Hz : forall t m, (forall sb, m = Some sb -> exists p dn, sb_kind sb = KPlan p dn) -> from_option (unsettled t a d) 0 m = 0).
    { intros t [sb|] Hm; [|reflexivity]. destruct (Hm sb eq_refl) as (p & dn & E). exact (unsettled_plan t a d sb p dn E). }
    rewrite !Hz by auto. reflexivity.
  - intros sb Hsb. destruct (Hpl sb (or_intror Hsb)) as (p & dn & E). exact (sub_ok_plan _ _ _ _ _ E).
Qed.

(** * an hourly payout keeps the invariant *)

Lemma payout_sub s id po :
  kinv_sub s -> lstruct s -> ledger_inv s -> payouts s !! id = Some po ->
  exists sb g h dep,
    subs s !! id = Some sb /\ sb_kind sb = KNode (po_node po) g h dep /\ 0 < h /\ 0 <= dep.2 /\
    sb_id sb = id /\ po_id po = id /\ po_addr po = sb_addr sb /\
    po_price po = (dep.1, Z.quot dep.2 h) /\ 0 <= po_hours po <= h.
Proof.
  intros Hk Hst Hl Hp. destruct (k_po _ Hk _ _ Hp) as (Eid & _).
  destruct (ls_pay_sub _ Hst _ _ Hp) as (Hh0 & sb & g & h & dep & Hsb & Hkd & Hh & Eaddr).
  destruct (k_sub _ Hk _ _ Hsb) as (Esid & _).
  destruct (lg_price _ Hl _ _ _ _ _ _ _ Hsb Hkd Hh Hp) as (Eprice & Hhr).
  pose proof (ls_kind _ Hst _ _ Hsb) as Hko. rewrite Hkd in Hko. destruct Hko as [Hgh Hdep].
  exists sb, g, h, dep. repeat split; auto; lia.
Qed.

Lemma payq_hours_pos s e po : idx_sub s -> e ∈ pay_q s -> payouts s !! e.2 = Some po -> 0 < po_hours po.
Proof.
  intros Hx He Hp. destruct e as [t id]. apply (ix_payq _ Hx) in He as (po2 & sb & Hp2 & _ & Hpos & _).
  simpl in Hp. rewrite Hp in Hp2. injection Hp2 as <-. exact Hpos.
Qed.

(* one hourly payout: the deposit record of the subscriber and the unsettled part of the paid
   subscription both go down by exactly the hourly price *)
Theorem ledger_payout_step s e s' :
  kinv s -> idx_sub s -> ledger_inv s -> e ∈ pay_q s -> payout_step s e = Ok s' -> ledger_inv s'.
Proof.
  intros Hi Hx Hl He H. pose proof (ki_sub _ Hi) as Hk. pose proof (idx_lstruct _ Hx) as Hst.
  destruct (payout_step_ledger _ _ _ H) as (po & po' & Hp & Hd & Hsubs & Hal & Hpo & Epr & Ehr & _).
  pose proof (payq_hours_pos s e po Hx He Hp) as Hpos.
  destruct (payout_sub _ _ _ Hk Hst Hl Hp) as (sb & g & h & dep & Hsb & Hkd & Hhpos & Hdep & Esid & Eid & Eaddr & Eprice & Hhr).
  assert (Hh : h <> 0) by lia.
  assert (Hp' : payouts s' !! e.2 = Some po') by (rewrite Hpo, Eid; apply lookup_insert).
  apply (ledger_inv_change s s' e.2 (fun a d => - dlt (po_addr po) (po_price po).1 (po_price po).2 a d));
    [exact Hk|exact Hl|..].
  - intros i Hne. rewrite Hsubs. reflexivity.
  - intros i a Hne. rewrite Hal. reflexivity.
  - intros i Hne. rewrite Hpo, Eid. rewrite lookup_insert_ne by congruence. reflexivity.
  - intros a d. rewrite Hd. lia.
  - intros a d. rewrite Hsubs, Hsb. simpl. rewrite <- Esid in Hp, Hp'.
    rewrite (unsettled_hour_paid s s' sb _ g h dep po po' Hkd Hh Hp Hp' Epr Ehr Eaddr) by (rewrite Eprice; reflexivity). lia.
  - intros sb' Hsb'. rewrite Hsubs, Hsb in Hsb'. injection Hsb' as <-.
    apply (sub_ok_hourly s' e.2 sb _ g h dep po' Hkd Esid Hhpos Hdep Hp'); [congruence|lia].
Qed.


(** * settlement of a session *)

Lemma metered_alloc s id sb n g dep acc al :
  kinv_sub s -> lstruct s -> ledger_inv s -> subs s !! id = Some sb -> sb_kind sb = KNode n g 0 dep ->
  allocs s !! (id, acc) = Some al ->
  acc = sb_addr sb /\ sb_id sb = id /\ al_id al = id /\ al_addr al = acc /\ 0 < g /\ 0 <= dep.2 /\
  al_granted al = GB * g /\ 0 <= al_used al <= al_granted al.
Proof.
  intros Hk Hst Hl Hsb Hkd Hal. destruct (k_sub _ Hk _ _ Hsb) as (Esid & _).
  pose proof (ls_kind _ Hst _ _ Hsb) as Hko. rewrite Hkd in Hko. destruct Hko as [Hgh Hdep].
  assert (Hg : 0 < g) by lia. clear Hgh.
  destruct (ls_alloc_sub _ Hst _ _ _ Hal) as (sb2 & Hsb2 & _ & Hmet). rewrite Hsb in Hsb2. injection Hsb2 as <-.
  assert (Eacc : acc = sb_addr sb).
  { apply Hmet. unfold metered. rewrite Hkd. apply negb_true_iff, Z.eqb_neq. lia. }
  destruct (k_al _ Hk _ _ Hal) as (Ka1 & Ka2 & _). rewrite Eacc in Hal.
  destruct (lg_alloc _ Hl _ _ _ _ _ _ _ Hsb Hkd eq_refl Hal) as (Egr & Hu). auto 10.
Qed.

(* what the settlement of a session on a per-gigabyte subscription does: usage grows to [used'],
   the subscriber's deposit record pays exactly afb(used') - afb(used) *)
Lemma settlement_spec s sid acc nd b s' x sb n g dep :
  kinv_sub s -> lstruct s -> ledger_inv s -> 0 <= b ->
  session_inactive_hook s sid acc nd b = Ok s' ->
  sessions s !! sid = Some x -> subs s !! ss_sub x = Some sb -> sb_kind sb = KNode n g 0 dep -> 0 < g ->
  exists al,
    acc = sb_addr sb /\ allocs s !! (sb_id sb, sb_addr sb) = Some al /\
    let used' := clamp_used al b in
    al_used al <= used' <= al_granted al /\
    0 <= afb (Z.quot dep.2 g) used' - afb (Z.quot dep.2 g) (al_used al) /\
    subs s' = subs s /\ payouts s' = payouts s /\
    allocs s' = <[(sb_id sb, sb_addr sb) := al <| al_used := used' |>]> (allocs s) /\
    (forall a d, damt s' a d = damt s a d -
       dlt (sb_addr sb) dep.1 (afb (Z.quot dep.2 g) used' - afb (Z.quot dep.2 g) (al_used al)) a d).
Proof.
  intros Hk Hst Hl Hb H Hx Hsb Hkd Hg.
  destruct (session_inactive_hook_effect _ _ _ _ _ _ H) as (x' & sb' & Hx' & _ & Hsb' & E).
  rewrite Hx in Hx'. injection Hx' as <-. rewrite Hsb in Hsb'. injection Hsb' as <-.
  rewrite Hkd in E. replace (g =? 0) with false in E by (symmetry; apply Z.eqb_neq; lia).
  destruct E as (al & Hal & prev & cur & fee & s2 & s3 & Hpr0 & Hprev & Hcur & Hd0 & _ & _ & H2 & H3 & ->).
  destruct (k_sub _ Hk _ _ Hsb) as (Esid & _). rewrite Esid in Hal.
  destruct (metered_alloc _ _ _ _ _ _ _ _ Hk Hst Hl Hsb Hkd Hal) as (-> & _ & Ka1 & Ka2 & _ & _ & Egr & Hu0 & Hu1).
  rewrite <- Esid in Hal, Ka1. exists al. split; [reflexivity|]. split; [exact Hal|]. cbv zeta.
  set (used' := clamp_used al b) in *.
  assert (Hub : al_used al <= used' <= al_granted al) by (unfold used', clamp_used; destruct (_ <? b) eqn:Eb; lia).
  apply afb_ok_exact in Hprev; [|lia|lia]. apply afb_ok_exact in Hcur; [|lia|lia]. subst prev cur.
  destruct (pay_transfers s _ _ _ _ _ _ _ _ _ H2 H3 eq_refl eq_refl eq_refl) as [T1 T2].
  destruct (keeps_sub _ _ _ (keeps_trans _ _ _ _ (z_dep_to_module_keeps _ _ _ _ _ H2) (z_dep_to_account_keeps _ _ _ _ _ H3)) eq_refl)
    as (_ & K2 & _ & _ & _ & _ & K7 & K8 & _).
  split; [exact Hub|]. split; [exact Hd0|]. split; [exact K2|]. split; [exact K8|].
  split; [rewrite <- Ka1, <- Ka2; exact K7|].
  intros a d. rewrite (pay_damt _ _ _ (emit _ s3) _ _ _ _ _ _ _ T1 T2 eq_refl).
  match goal with |- context [dlt _ _ (fee + (?z - fee))] => replace (fee + (z - fee)) with z by lia end. reflexivity.
Qed.

Theorem ledger_session_inactive_hook s sid acc nd b s' :
  kinv_sub s -> lstruct s -> ledger_inv s -> 0 <= b ->
  session_inactive_hook s sid acc nd b = Ok s' -> ledger_inv s'.
Proof.
  intros Hk Hst Hl Hb H. destruct (session_inactive_hook_effect _ _ _ _ _ _ H) as (x & sb & Hx & _ & Hsb & E).
  destruct (k_sub _ Hk _ _ Hsb) as (Esid & _).
  pose proof (ls_kind _ Hst _ _ Hsb) as Hko.
  destruct (sb_kind sb) as [n g h dep|pid dn] eqn:Hkd.
  - simpl in Hko. destruct Hko as [[[-> Hh]|[Hg ->]] Hdep].
    + replace (negb (h =? 0)) with true in E by (symmetry; apply negb_true_iff, Z.eqb_neq; lia).
      subst s'. exact Hl.
    + clear E.
      destruct (settlement_spec _ _ _ _ _ _ _ _ _ _ _ Hk Hst Hl Hb H Hx Hsb Hkd Hg)
        as (al & _ & Hal & Hub & Hdiff0 & F1 & F2 & F3 & Hd).
      set (used' := clamp_used al b) in *.
      assert (Hal2 : allocs s !! (ss_sub x, sb_addr sb) = Some al) by (rewrite <- Esid; exact Hal).
      destruct (metered_alloc _ _ _ _ _ _ _ _ Hk Hst Hl Hsb Hkd Hal2) as (_ & _ & _ & _ & _ & _ & Egr & Hu0 & Hu1).
      assert (Hfull : afb (Z.quot dep.2 g) used' <= dep.2) by (apply afb_within; lia).
      assert (Hal' : allocs s' !! (ss_sub x, sb_addr sb) = Some (al <| al_used := used' |>))
        by (rewrite F3, Esid; apply lookup_insert).
      set (diff := afb (Z.quot dep.2 g) used' - afb (Z.quot dep.2 g) (al_used al)) in *.
      apply (ledger_inv_change s s' (ss_sub x) (fun a d => - dlt (sb_addr sb) dep.1 diff a d));
        [exact Hk|exact Hl|..].
      * intros i Hne. rewrite F1. reflexivity.
      * intros i a Hne. rewrite F3, Esid. rewrite lookup_insert_ne by congruence. reflexivity.
      * intros i Hne. rewrite F2. reflexivity.
      * intros a d. rewrite Hd. lia.
      * intros a d. rewrite F1, Hsb. simpl. rewrite <- Esid in Hal'.
        rewrite (unsettled_settled s s' sb n g dep al used' Hkd Hal Hal'). fold diff. lia.
      * intros sb' Hsb'. rewrite F1, Hsb in Hsb'. injection Hsb' as <-.
        apply (sub_ok_metered s' _ sb n g dep _ Hkd Esid Hal'); simpl; [exact Egr|lia|exact Hfull].
  - destruct E as (al & Hal & ->). destruct (k_al _ Hk _ _ Hal) as (Ka1 & _). cbn [fst] in Ka1.
    apply (ledger_inv_change_plan s _ (ss_sub x) Hk Hl); try reflexivity.
    + intros i a Hne. unfold usage_state. simpl. rewrite lookup_insert_ne by congruence. reflexivity.
    + intros sb' [Hsb'|Hsb']; [|change (subs s !! ss_sub x = Some sb') in Hsb']; rewrite Hsb in Hsb'; injection Hsb' as <-; eauto.
Qed.

Theorem ledger_session_expire_one s e s' :
  kinv s -> quota_inv s -> idx_sub s -> ledger_inv s -> session_expire_one s e = Ok s' -> ledger_inv s'.
Proof.
  intros Hi Hq Hxi Hl H. pose proof (ki_sub _ Hi) as Hk. pose proof (idx_lstruct _ Hxi) as Hst. destruct (session_expire_one_effect _ _ _ H) as (x & Hx & [[_ ->]|(_ & _ & s1 & Hh & ->)]).
  - apply (ledger_inv_frame s); [reflexivity..|exact Hl].
  - destruct (q_sess _ Hq _ _ Hx) as [Hu Hd]. apply ledger_session_inactive_hook in Hh.
    + apply (ledger_inv_frame s1); [reflexivity..|exact Hh].
    + apply (kinv_sub_frame s); [reflexivity..|exact Hk].
    + apply (lstruct_frame s); [reflexivity..|exact Hst].
    + apply (ledger_inv_frame s); [reflexivity..|exact Hl].
    + lia.
Qed.

(** * expiry of a subscription *)

(* what the ledger reads of an allocation / a payout *)
Lemma unsettled_view s s' a d sb :
  al_used <$> allocs s' !! (sb_id sb, sb_addr sb) = al_used <$> allocs s !! (sb_id sb, sb_addr sb) ->
  (fun po => (po_price po, po_hours po)) <$> payouts s' !! sb_id sb =
  (fun po => (po_price po, po_hours po)) <$> payouts s !! sb_id sb ->
  unsettled s' a d sb = unsettled s a d sb.
Proof.
  intros E1 E2. unfold unsettled.
  destruct (allocs s' !! (sb_id sb, sb_addr sb)) as [al'|], (allocs s !! (sb_id sb, sb_addr sb)) as [al|];
    simpl in E1; try discriminate;
  destruct (payouts s' !! sb_id sb) as [po'|], (payouts s !! sb_id sb) as [po|]; simpl in E2; try discriminate;
  try (injection E1 as E1); try (injection E2 as E2a E2b); rewrite ?E1, ?E2a, ?E2b; reflexivity.
Qed.

Lemma ledger_sub_make_pending s sb :
  kinv_sub s -> ledger_inv s -> subs s !! sb_id sb = Some sb -> ledger_inv (sub_make_pending s sb).
Proof.
  intros Hk Hl Hsb. unfold sub_make_pending.
  match goal with |- ledger_inv ?t => set (sf := t) end.
  assert (F : subs sf = <[sb_id sb := sb <| sb_inactive_at := now s + p_sub_delay (pars s) |> <| sb_status := SPending |>
                                       <| sb_status_at := now s |>]> (subs s)) by reflexivity.
  apply (ledger_inv_change s sf (sb_id sb) (fun a d => 0)); [exact Hk|exact Hl|..].
  - intros i Hne. rewrite F. rewrite lookup_insert_ne by congruence. reflexivity.
  - intros i a Hne. reflexivity.
  - intros i Hne. reflexivity.
  - intros a d. change (damt sf a d) with (damt s a d). lia.
  - intros a d. rewrite F, lookup_insert, Hsb. simpl.
    rewrite (unsettled_core sf a d sb) by reflexivity.
    rewrite (unsettled_same s sf a d sb) by reflexivity. lia.
  - intros sb' Hsb'. rewrite F, lookup_insert in Hsb'. injection Hsb' as <-.
    apply (sub_ok_core sf _ sb); try reflexivity.
    apply (sub_ok_same s sf); try reflexivity. eapply ledger_sub_ok; eauto.
Qed.

Lemma payout_of_Some s sb o : payout_of s sb = Some o -> o = payouts s !! sb_id sb.
Proof. unfold payout_of. destruct (sb_kind sb) as [? ? h ?|]; [destruct (h =? 0)|]; congruence. Qed.

Lemma ledger_detach_payout s sb m s' :
  kinv_sub s -> ledger_inv s -> (forall s'', m = Ok s'' -> ledger_inv s'') ->
  detach_payout s sb m = Ok s' -> ledger_inv s'.
Proof.
  intros Hk Hl Hm H. apply detach_payout_effect in H. pose proof (payout_of_Some s sb) as Hp.
  destruct (payout_of s sb) as [[po|]|]; [|apply Hm; exact H|subst s'; exact Hl].
  specialize (Hp _ eq_refl). symmetry in Hp. destruct (k_po _ Hk _ _ Hp) as (Eid & _). subst s'.
  set (sf := detach_state s po).
  assert (F : payouts sf = <[sb_id sb := po <| po_next_at := tzero |>]> (payouts s)) by (unfold sf, detach_state; simpl; rewrite Eid; reflexivity).
  apply (ledger_inv_change s sf (sb_id sb) (fun a d => 0)); [exact Hk|exact Hl|..].
  - intros i Hne. reflexivity.
  - intros i a Hne. reflexivity.
  - intros i Hne. rewrite F. rewrite lookup_insert_ne by congruence. reflexivity.
  - intros a d. change (damt sf a d) with (damt s a d). lia.
  - intros a d. change (subs sf) with (subs s). destruct (subs s !! sb_id sb) as [sb0|] eqn:Hsb0; simpl; [|lia].
    destruct (k_sub _ Hk _ _ Hsb0) as (E0 & _).
    rewrite (unsettled_view s sf a d sb0); [lia|reflexivity|]. rewrite E0, F, lookup_insert, Hp. reflexivity.
  - intros sb0 Hsb0. change (subs sf) with (subs s) in Hsb0. destruct (k_sub _ Hk _ _ Hsb0) as (E0 & _).
    pose proof (ledger_sub_ok _ _ _ Hl Hsb0) as (A & B & C). split; [|split].
    + intros a d. rewrite (unsettled_view s sf a d sb0); [apply A|reflexivity|].
      rewrite E0, F, lookup_insert, Hp. reflexivity.
    + intros n' g' h' dep' al. apply B.
    + intros n' g' h' dep' po2 Hkd' Hh' Hp2. rewrite F, lookup_insert in Hp2. injection Hp2 as <-. simpl.
      eapply C; eauto.
Qed.

Lemma sub_cleanup_fields s sb :
  subs (sub_cleanup s sb) = subs s /\ payouts (sub_cleanup s sb) = payouts s /\
  deposits (sub_cleanup s sb) = deposits s /\
  forall i a, i <> sb_id sb -> allocs (sub_cleanup s sb) !! (i, a) = allocs s !! (i, a).
Proof.
  unfold sub_cleanup. destruct (sb_kind sb).
  - simpl. repeat split. intros i a Hne. rewrite lookup_delete_ne by congruence. reflexivity.
  - apply (fold_left_inv (fun y => subs y = subs s /\ payouts y = payouts s /\ deposits y = deposits s /\
                                  forall i a, i <> sb_id sb -> allocs y !! (i, a) = allocs s !! (i, a))).
    + intros y al (E1 & E2 & E3 & E4). simpl. repeat split; auto.
      intros i a Hne. rewrite lookup_delete_ne by congruence. apply E4. exact Hne.
    + simpl. repeat split.
Qed.

Lemma sub_delete_payout_fields s sb s' :
  kinv_sub s -> sub_delete_payout s sb = Ok s' ->
  subs s' = subs s /\ allocs s' = allocs s /\ deposits s' = deposits s /\
  forall i, i <> sb_id sb -> payouts s' !! i = payouts s !! i.
Proof.
  intros Hk H. apply sub_delete_payout_effect in H. pose proof (payout_of_Some s sb) as Hp.
  destruct (payout_of s sb) as [[po|]|]; [|contradiction|subst s'; auto].
  specialize (Hp _ eq_refl). symmetry in Hp. destruct (k_po _ Hk _ _ Hp) as (Eid & _). subst s'. repeat split.
  intros i Hne. unfold payout_delete_state. simpl. rewrite Eid. rewrite lookup_delete_ne by congruence. reflexivity.
Qed.

Lemma refunded_spec s sb a c s' :
  refunded s sb a c s' ->
  (forall x d, damt s' x d = damt s x d - dlt a c.1 c.2 x d) /\
  (forall x d, bal s' x d = bal s x d + moved (c_deposit (cfg s)) a c.1 c.2 x d) /\
  subs s' = subs s /\ allocs s' = allocs s /\ payouts s' = payouts s.
Proof.
  intros (_ & s0 & H0 & ->). pose proof (z_dep_to_account_transfer _ _ _ _ _ H0) as T.
  destruct (keeps_sub _ _ _ (z_dep_to_account_keeps _ _ _ _ _ H0) eq_refl) as (_ & K2 & _ & _ & _ & _ & K7 & K8 & _).
  split; [exact (z_dep_to_account_damt _ _ _ _ _ H0)|]. split; [exact (transfer_bal _ _ _ _ _ _ _ _ T)|]. auto.
Qed.

(* the refund at removal is exactly the unsettled part of the removed subscription: it leaves the
   subscriber's deposit record and arrives on the subscriber's bank balance *)
Theorem sub_refund_spec s id sb s1 :
  kinv_sub s -> lstruct s -> ledger_inv s -> subs s !! id = Some sb -> sub_refund s sb = Ok s1 ->
  (forall a d, damt s1 a d = damt s a d - unsettled s a d sb) /\
  subs s1 = subs s /\ allocs s1 = allocs s /\ payouts s1 = payouts s /\
  (forall n g h dep, sb_kind sb = KNode n g h dep -> forall x d',
     bal s1 x d' = bal s x d' + moved (c_deposit (cfg s)) (sb_addr sb) dep.1 (unsettled s (sb_addr sb) dep.1 sb) x d').
Proof.
  intros Hk Hst Hl Hsb H. apply sub_refund_effect in H.
  destruct (k_sub _ Hk _ _ Hsb) as (Esid & _).
  pose proof (ls_kind _ Hst _ _ Hsb) as Hko.
  destruct (sb_kind sb) as [n g h dep|pid dn] eqn:Hkd.
  2: { subst s1. repeat split; [|discriminate]. intros a d. rewrite (unsettled_plan s a d sb pid dn Hkd). lia. }
  (* either way one refund [c] to the subscriber, and [c] is the unsettled part *)
  assert (R : exists c, refunded s sb (sb_addr sb) (dep.1, c) s1 /\
                        forall a d, unsettled s a d sb = dlt (sb_addr sb) dep.1 c a d).
  { destruct H as (s0 & H0 & H). simpl in Hko. destruct Hko as [[[-> Hh]|[Hg ->]] Hdep].
    - cbn in H0. subst s0. replace (h =? 0) with false in H by (symmetry; apply Z.eqb_neq; lia).
      destruct H as (po & Hp & H). assert (Hhne : h <> 0) by lia.
      assert (Hp' : payouts s !! id = Some po) by (rewrite <- Esid; exact Hp).
      destruct (payout_sub _ _ _ Hk Hst Hl Hp') as (sb2 & g2 & h2 & d2 & Hsb2 & Hkd2 & _ & _ & _ & _ & Eaddr & Eprice & _).
      rewrite Hsb in Hsb2. injection Hsb2 as <-. rewrite Hkd in Hkd2. injection Hkd2 as _ _ <- <-.
      rewrite Eaddr, Eprice in H. eexists. split; [exact H|]. intros a d.
      rewrite (unsettled_hourly_dlt s a d sb n 0 h dep po Hkd Hhne Hp), Eprice. reflexivity.
    - cbn in H. subst s1. replace (g =? 0) with false in H0 by (symmetry; apply Z.eqb_neq; lia).
      destruct H0 as (al & paid & Hal & Hpr0 & Hpaid & H0).
      assert (Hal' : allocs s !! (id, sb_addr sb) = Some al) by (rewrite <- Esid; exact Hal).
      destruct (lg_alloc _ Hl _ _ _ _ _ _ _ Hsb Hkd eq_refl Hal') as (_ & Hu0 & _).
      apply afb_ok_exact in Hpaid; [|lia|lia]. subst paid. eexists. split; [exact H0|]. intros a d.
      exact (unsettled_metered_dlt s a d sb n g dep al Hkd Hal). }
  destruct R as (c & R & U). destruct (refunded_spec _ _ _ _ _ R) as (D & B & F1 & F2 & F3). cbn [fst snd] in D, B.
  split; [intros a d; rewrite D, U; reflexivity|]. do 3 (split; [assumption|]).
  intros n' g' h' dep' Hkd' x d'. injection Hkd' as <- <- <- <-. rewrite U. unfold dlt at 1.
  rewrite bool_decide_eq_true_2 by auto. apply B.
Qed.

(* the removal of a subscription whose grace period is over: the refund is the unsettled part *)
Lemma sub_removal_spec s e s' sb :
  kinv_sub s -> lstruct s -> ledger_inv s -> sub_expire_one s e = Ok s' ->
  subs s !! e.2 = Some sb -> sb_status sb <> SActive ->
  (forall a d, damt s' a d = damt s a d - unsettled s a d sb) /\
  subs s' = delete e.2 (subs s) /\
  (forall i a, i <> e.2 -> allocs s' !! (i, a) = allocs s !! (i, a)) /\
  (forall i, i <> e.2 -> payouts s' !! i = payouts s !! i) /\
  (forall n g h dep, sb_kind sb = KNode n g h dep -> forall x d',
     bal s' x d' = bal s x d' + moved (c_deposit (cfg s)) (sb_addr sb) dep.1 (unsettled s (sb_addr sb) dep.1 sb) x d').
Proof.
  intros Hk Hst Hl H Hsb Hna.
  destruct (sub_expire_one_effect _ _ _ H) as (sb' & Hsb' & E). rewrite Hsb in Hsb'. injection Hsb' as <-.
  destruct E as [[Ha _]|(_ & s1 & H1 & H2)]; [contradiction|].
  destruct (k_sub _ Hk _ _ Hsb) as (Esid & _). rewrite <- Esid in Hsb |- *. clear Esid.
  set (s0 := sub_unqueue s sb) in *.
  assert (Hk0 : kinv_sub s0) by (apply (kinv_sub_frame s); [reflexivity..|exact Hk]).
  assert (Hl0 : ledger_inv s0) by (apply (ledger_inv_frame s); [reflexivity..|exact Hl]).
  assert (Hst0 : lstruct s0) by (apply (lstruct_frame s); [reflexivity..|exact Hst]).
  destruct (sub_refund_spec _ _ _ _ Hk0 Hst0 Hl0 Hsb H1) as (D1 & S1 & A1 & P1 & B1).
  assert (Hk1 : kinv_sub s1).
  { apply (kinv_sub_frame s0); auto. apply (keeps_sub _ _ _ (sub_refund_keeps _ _ _ H1) eq_refl). }
  destruct (sub_cleanup_fields s1 sb) as (S2 & P2 & D2 & A2).
  pose proof (keeps_bank _ _ _ (sub_cleanup_keeps s1 sb) eq_refl) as B2.
  pose proof (kinv_sub_cleanup s1 sb Hk1) as Hk2.
  set (s3 := sub_removed_state s1 sb) in *.
  assert (Hk3 : kinv_sub s3).
  { destruct Hk2 as [KA KB KC KD]. split; simpl; auto. apply map_Forall_delete. exact KA. }
  destruct (sub_delete_payout_fields _ _ _ Hk3 H2) as (S4 & A4 & D4 & P4).
  pose proof (keeps_bank _ _ _ (sub_delete_payout_keeps _ _ _ H2) eq_refl) as B4.
  split. { intros a d. rewrite (damt_frame s3 s' D4). change (damt s3 a d) with (damt (sub_cleanup s1 sb) a d).
           rewrite (damt_frame s1 _ D2), D1. reflexivity. }
  split. { rewrite S4. unfold s3. simpl. rewrite S2, S1. reflexivity. }
  split. { intros i a Hne. rewrite A4. unfold s3. simpl. rewrite A2 by exact Hne. rewrite A1. reflexivity. }
  split. { intros i Hne. rewrite P4 by exact Hne. unfold s3. simpl. rewrite P2, P1. reflexivity. }
  intros n g h dep Hkd x d'. specialize (B1 _ _ _ _ Hkd x d').
  unfold bal in *. rewrite B4. unfold s3. simpl. rewrite B2. exact B1.
Qed.

Lemma ledger_demote s s1 sb m s' :
  kinv_sub s -> ledger_inv s -> subs s !! sb_id sb = Some sb -> (forall x, m <> Ok x) ->
  sub_pending_hook s (sb_id sb) = Ok s1 -> detach_payout (sub_make_pending s1 sb) sb m = Ok s' -> ledger_inv s'.
Proof.
  intros Hk Hl Hsb Hm H1 H2. pose proof (sub_pending_hook_keeps _ _ _ H1) as K.
  destruct (keeps_sub _ _ _ K eq_refl) as (K1 & K2 & _ & _ & _ & _ & K7 & K8 & _).
  assert (Hk1 : kinv_sub s1) by (apply (kinv_sub_frame s); assumption).
  assert (Hsb1 : subs s1 !! sb_id sb = Some sb) by (rewrite K2; exact Hsb).
  eapply ledger_detach_payout; [| | |exact H2].
  - apply kinv_sub_make_pending; assumption.
  - apply ledger_sub_make_pending; [assumption| |assumption].
    apply (ledger_inv_frame s); [exact (keeps_dep _ _ _ K eq_refl)|assumption..].
  - intros x E. destruct (Hm x E).
Qed.

Theorem ledger_sub_expire_one s e s' :
  kinv s -> idx_sub s -> ledger_inv s -> sub_expire_one s e = Ok s' -> ledger_inv s'.
Proof.
  intros Hi Hx Hl H. pose proof (ki_sub _ Hi) as Hk. pose proof (idx_lstruct _ Hx) as Hst.
  destruct (sub_expire_one_effect _ _ _ H) as (sb & Hsb & [(_ & s1 & H1 & H2)|(Hna & _)]).
  - destruct (k_sub _ Hk _ _ Hsb) as (Esid & _).
    apply (ledger_demote (sub_unqueue s sb) s1 sb Panic s'); [| |rewrite Esid; exact Hsb|discriminate|exact H1|exact H2].
    + apply (kinv_sub_frame s); [reflexivity..|exact Hk].
    + apply (ledger_inv_frame s); [reflexivity..|exact Hl].
  - destruct (sub_removal_spec _ _ _ _ Hk Hst Hl H Hsb Hna) as (D & S & A & P & _).
    apply (ledger_inv_change s s' e.2 (fun a d => - unsettled s a d sb)); [exact Hk|exact Hl| |exact A|exact P|..].
    + intros i Hne. rewrite S. apply lookup_delete_ne. congruence.
    + intros a d. rewrite D. lia.
    + intros a d. rewrite S, lookup_delete, Hsb. simpl. lia.
    + intros sb' Hsb'. rewrite S, lookup_delete in Hsb'. discriminate.
Qed.

(** * purchases *)

(* a purchase from a node: the escrowed amount is the unsettled part of the new subscription *)
Theorem ledger_create_sub_for_node s acc nd g h dn s' id :
  kinv_sub s -> ledger_inv s -> 0 <= g -> 0 <= h -> (g = 0 /\ h <> 0) \/ (g <> 0 /\ h = 0) ->
  create_sub_for_node s acc nd g h dn = Ok (s', id) -> ledger_inv s'.
Proof.
  intros Hk Hl Hg0 Hh0 Hgh H. pose proof (fresh_sub s Hk (sub_count s + 1) ltac:(lia)) as Fs.
  destruct (create_sub_for_node_effect _ _ _ _ _ _ _ _ H) as (n & inact & dep & s1 & _ & _ & (Gg & Gh & _) & H1 & -> & ->).
  pose proof (z_dep_add_damt _ _ _ _ H1) as D1.
  destruct (keeps_sub _ _ _ (z_dep_add_keeps _ _ _ _ H1) eq_refl) as (_ & K2 & _ & _ & _ & _ & K7 & K8 & _). clear H H1.
  set (id := sub_count s + 1) in *. set (sb := node_sub s acc nd g h inact dep).
  set (s' := node_purchase_state s1 s acc nd g h inact dep).
  assert (Hsubs : subs s' = <[id := sb]> (subs s)) by (rewrite <- K2; reflexivity).
  assert (Hal : allocs s' = if g =? 0 then allocs s else <[(id, acc) := node_sub_alloc s acc g]> (allocs s))
    by (rewrite <- K7; reflexivity).
  assert (Hpo : payouts s' = if h =? 0 then payouts s else <[id := node_sub_payout s acc nd h dep]> (payouts s))
    by (rewrite <- K8; reflexivity).
  assert (Hsb : subs s' !! id = Some sb) by (rewrite Hsubs; apply lookup_insert).
  assert (V : (forall a d, unsettled s' a d sb = dlt acc dep.1 dep.2 a d) /\ sub_ok s' id sb).
  { destruct Hgh as [[-> Hh]|[Hg ->]].
    - replace (h =? 0) with false in Hpo by (symmetry; apply Z.eqb_neq; exact Hh).
      destruct (Gh Hh) as (price & _ & _ & Hpos & _ & Ed & _).
      assert (Hp : payouts s' !! id = Some (node_sub_payout s acc nd h dep)) by (rewrite Hpo; apply lookup_insert). split.
      + intros a d. rewrite (unsettled_hourly_dlt s' a d sb nd 0 h dep _ eq_refl Hh Hp).
        assert (Eq : Z.quot dep.2 h * h = dep.2) by (rewrite Ed; simpl; rewrite Z.quot_mul by exact Hh; reflexivity).
        cbn [node_sub_payout po_price po_hours snd]. rewrite Eq. reflexivity.
      + apply (sub_ok_hourly s' id sb nd 0 h dep (node_sub_payout s acc nd h dep) eq_refl eq_refl); [lia|rewrite Ed; exact Hpos|exact Hp|reflexivity|simpl; lia].
    - replace (g =? 0) with false in Hal by (symmetry; apply Z.eqb_neq; exact Hg).
      destruct (Gg Hg) as (price & a0 & _ & _ & _ & Ha0 & Hd). destruct (Hd eq_refl) as [_ Ed].
      assert (Ha : allocs s' !! (id, acc) = Some (node_sub_alloc s acc g)) by (rewrite Hal; apply lookup_insert). split.
      + intros a d. rewrite (unsettled_metered_dlt s' a d sb nd g dep _ eq_refl Ha).
        cbn [node_sub_alloc al_used]. rewrite afb_0, Z.sub_0_r. reflexivity.
      + apply (sub_ok_metered s' id sb nd g dep _ eq_refl eq_refl Ha); simpl; [reflexivity|pose proof GB_pos; nia|].
        rewrite afb_0, Ed. exact Ha0. }
  destruct V as [U O].
  apply (ledger_inv_change s s' id (fun a d => dlt acc dep.1 dep.2 a d)); [exact Hk|exact Hl|..].
  - intros i Hne. rewrite Hsubs. apply lookup_insert_ne. congruence.
  - intros i a Hne. rewrite Hal. destruct (g =? 0); [reflexivity|]. apply lookup_insert_ne. congruence.
  - intros i Hne. rewrite Hpo. destruct (h =? 0); [reflexivity|]. apply lookup_insert_ne. congruence.
  - exact D1.
  - intros a d. rewrite Hsb, Fs. simpl. rewrite U. lia.
  - intros sb' Hsb'. rewrite Hsb in Hsb'. injection Hsb' as <-. exact O.
Qed.

Theorem ledger_create_sub_for_plan s acc pid dn s' id :
  kinv_sub s -> ledger_inv s -> create_sub_for_plan s acc pid dn = Ok (s', id) -> ledger_inv s'.
Proof.
  intros Hk Hl H. pose proof (fresh_sub s Hk (sub_count s + 1) ltac:(lia)) as Fs.
  destruct (create_sub_for_plan_effect _ _ _ _ _ _ H) as (p & price & fee & s1 & s2 & _ & _ & _ & _ & _ & _ & H1 & H2 & _ & -> & ->).
  pose proof (keeps_trans _ _ _ _ (z_send_keeps _ _ _ _ _ H1) (z_send_keeps _ _ _ _ _ H2)) as K.
  destruct (keeps_sub _ _ _ K eq_refl) as (_ & K2 & _ & _ & _ & _ & K7 & K8 & _).
  apply (ledger_inv_change_plan s _ (sub_count s + 1) Hk Hl).
  - intros i Hne. unfold plan_purchase_state. simpl. rewrite K2. apply lookup_insert_ne. congruence.
  - intros i a Hne. unfold plan_purchase_state. simpl. rewrite K7. apply lookup_insert_ne. congruence.
  - intros i Hne. exact (f_equal (lookup i) K8).
  - exact (keeps_dep _ _ _ K eq_refl).
  - intros sb [Hsb|Hsb]; [congruence|]. unfold plan_purchase_state in Hsb. simpl in Hsb. rewrite lookup_insert in Hsb.
    injection Hsb as <-. simpl. eauto.
Qed.

(** * sharing quota, cancelling *)

Lemma h_sub_allocate_fields s from id to b s' :
  h_sub_allocate s from id to b = Ok s' -> subs s' = subs s /\ payouts s' = payouts s /\ deposits s' = deposits s.
Proof. intros H. destruct (h_sub_allocate_effect _ _ _ _ _ _ H) as (sb & fal & _ & _ & _ & _ & _ & _ & _ & _ & _ & ->). auto. Qed.

Theorem ledger_h_sub_allocate s from id to b s' :
  kinv_sub s -> ledger_inv s -> h_sub_allocate s from id to b = Ok s' -> ledger_inv s'.
Proof.
  intros Hk Hl H. destruct (h_sub_allocate_effect _ _ _ _ _ _ H) as (sb & fal & Hsb & Ekd & _ & _ & _ & _ & _ & _ & _ & ->).
  apply (ledger_inv_change_plan s _ id Hk Hl); try reflexivity.
  - intros i a Hi. unfold share_state. simpl. rewrite !lookup_insert_ne by congruence. reflexivity.
  - intros sb' [Hsb'|Hsb']; [|change (subs s !! id = Some sb') in Hsb']; rewrite Hsb in Hsb'; injection Hsb' as <-; exact Ekd.
Qed.

Theorem ledger_h_sub_cancel s from id s' :
  kinv_sub s -> ledger_inv s -> h_sub_cancel s from id = Ok s' -> ledger_inv s'.
Proof.
  intros Hk Hl H. destruct (h_sub_cancel_effect _ _ _ _ H) as (sb & s1 & Hsb & _ & _ & H1 & H2).
  destruct (k_sub _ Hk _ _ Hsb) as (Esid & _). rewrite <- Esid in Hsb, H1.
  refine (ledger_demote (sub_unqueue s sb) s1 sb Err s' _ _ Hsb _ H1 H2); [| |discriminate].
  - apply (kinv_sub_frame s); [reflexivity..|exact Hk].
  - apply (ledger_inv_frame s); [reflexivity..|exact Hl].
Qed.

(** * transactions *)

Lemma validate_node_subscribe from nd g h dn :
  validate_basic (MNodeSubscribe from nd g h dn) = true ->
  0 <= g /\ 0 <= h /\ ((g = 0 /\ h <> 0) \/ (g <> 0 /\ h = 0)).
Proof.
  intros Hv. simpl in Hv. repeat rewrite andb_true_iff in Hv. destruct Hv as [[[[[[_ _] H1] H2] Hg] Hh] _].
  apply Z.leb_le in Hg, Hh. destruct (Z.eqb_spec g 0), (Z.eqb_spec h 0); try discriminate; auto.
Qed.

Theorem ledger_handle s m s' :
  kinv s -> ledger_inv s -> validate_basic m = true -> handle s m = Ok s' -> ledger_inv s'.
Proof.
  intros Hi Hl Hv H. pose proof (handle_frame _ _ _ H) as Hk.
  destruct m; simpl in H; try exact (ledger_inv_keeps _ _ _ Hk eq_refl eq_refl Hl); clear Hk.
  - (* node_subscribe *)
    destruct (validate_node_subscribe _ _ _ _ _ Hv) as (Hg & Hh & Hgh).
    destruct (h_node_subscribe_effect _ _ _ _ _ _ _ H) as (s1 & id & _ & _ & Hc & ->).
    apply (ledger_inv_frame s1); [reflexivity..|]. exact (ledger_create_sub_for_node _ _ _ _ _ _ _ _ (ki_sub _ Hi) Hl Hg Hh Hgh Hc).
  - (* plan_subscribe *)
    destruct (h_plan_subscribe_effect _ _ _ _ _ H) as (s1 & id0 & Hc & ->).
    eapply ledger_inv_frame; [..|eapply ledger_create_sub_for_plan; [apply Hi|exact Hl|exact Hc]]; reflexivity.
  - eapply ledger_h_sub_cancel; [apply Hi|exact Hl|exact H].
  - eapply ledger_h_sub_allocate; [apply Hi|exact Hl|exact H].
Qed.

(** * the genesis state *)

Theorem ledger_init g : ledger_inv (init g).
Proof.
  assert (E : deposits (init g) = ∅ /\ subs (init g) = ∅).
  { unfold init. destruct (g_mint g) as [[[mx mn] rc] inf]. simpl.
    apply (fold_left_inv (fun x => deposits x = ∅ /\ subs x = ∅)); [|split; reflexivity].
    intros x [b [d v]] Hx. exact Hx. }
  destruct E as (E1 & E2). apply ledger_inv_intro.
  - intros a d. unfold damt, dep_of, ledger_total. rewrite E1, E2, lookup_empty, msum_empty. apply amount_of_empty.
  - intros id sb Hsb. rewrite E2, lookup_empty in Hsb. discriminate.
Qed.

(** * block hooks *)

(* a payout step only touches the queue entries of its own payout *)
Lemma payout_step_queue s e s' :
  kinv_sub s -> idx_sub s -> e ∈ pay_q s -> payout_step s e = Ok s' ->
  forall y, y <> e -> y ∈ pay_q s -> y ∈ pay_q s'.
Proof.
  intros Hk Hx He H y Hne Hy.
  destruct (payout_step_ledger _ _ _ H) as (po & po' & Hp & _ & _ & _ & _ & _ & _ & Hq).
  destruct (k_po _ Hk _ _ Hp) as (Eid & _). destruct e as [t id]. simpl in *.
  apply (ix_payq _ Hx) in He as (po2 & sb & Hp2 & Et & _). rewrite Hp in Hp2. injection Hp2 as <-.
  apply Hq. rewrite Eid, Et. set_solver.
Qed.

(* facts of KeysInv.v and Quota.v about one payout (the whole of [kinv], not only its subscription part;
   the quota invariant); they stand here because the block hooks below were their first user *)
Lemma kinv_payout_step_full s e s' : kinv s -> payout_step s e = Ok s' -> kinv s'.
Proof.
  intros Hi H. pose proof (payout_step_keeps _ _ _ H) as Hk. kinv_frame Hk Hi. intros _.
  eapply kinv_payout_step; [apply Hi|exact H].
Qed.

Lemma quota_payout_step s e s' : quota_inv s -> payout_step s e = Ok s' -> quota_inv s'.
Proof. intros Hq H. destruct (payout_step_allocs _ _ _ H) as (E1 & E2 & E3 & E4). eapply quota_inv_frame; eauto. Qed.

(* the conjunction carried through the block hooks *)
Definition linv (s : state) : Prop := kinv s /\ quota_inv s /\ idx_sub s /\ ledger_inv s.

Lemma linv_keeps T s s' :
  keeps T s s' -> touched GDep T = false -> touched GSub T = false -> touched GSess T = false ->
  touched GPl T = false -> touched GPv T = false -> touched GNode T = false -> linv s -> linv s'.
Proof.
  intros Hk T1 T2 T3 T4 T5 T6 (A & B & C & D). split; [|split; [|split]].
  - eapply kinv_other; eauto.
  - eapply quota_inv_keeps; eauto.
  - eapply idx_sub_keeps; eauto.
  - eapply ledger_inv_keeps; eauto.
Qed.

(* Preservation of the index/structure invariant [idx_sub] by the three iteration bodies of the
   block hooks is proved separately (IndexSub2.v); the block- and step-level theorems take it as
   Section hypotheses, with every invariant available at that point as a premise. *)
Section with_idx.
  Hypothesis idx_payout_step : forall s e s',
    kinv s -> quota_inv s -> idx_sub s -> ledger_inv s -> e ∈ pay_q s -> payout_step s e = Ok s' -> idx_sub s'.
  Hypothesis idx_sub_session_expire_one : forall s e s',
    kinv s -> quota_inv s -> idx_sub s -> ledger_inv s -> session_expire_one s e = Ok s' -> idx_sub s'.
  Hypothesis idx_sub_expire_one : forall s e s',
    kinv s -> quota_inv s -> idx_sub s -> ledger_inv s -> sub_expire_one s e = Ok s' -> idx_sub s'.

  Theorem linv_sub_begin_block s s' : linv s -> sub_begin_block s = Ok s' -> linv s'.
  Proof.
    intros Hs H. unfold sub_begin_block in H.
    eapply (rfold_inv_queue linv (fun y e => e ∈ pay_q y)); [apply NoDup_due_z| |exact Hs| |exact H].
    - intros a e b (A & B & C & D) He Hstep. split.
      + split; [|split; [|split]].
        * eapply kinv_payout_step_full; eauto.
        * eapply quota_payout_step; eauto.
        * eapply idx_payout_step; eauto.
        * eapply ledger_payout_step; eauto.
      + eapply payout_step_queue; eauto. apply A.
    - intros e He. apply elem_of_due_z in He. apply He.
  Qed.

  Theorem linv_session_end_block s s' : linv s -> session_end_block s = Ok s' -> linv s'.
  Proof.
    intros Hs H. unfold session_end_block in H. eapply (rfold_inv linv); [|exact Hs|exact H].
    intros a e b (A & B & C & D) Hstep. split; [|split; [|split]].
    - eapply kinv_session_expire_one; eauto.
    - eapply quota_session_expire_one; eauto.
    - eapply idx_sub_session_expire_one; eauto.
    - eapply ledger_session_expire_one; eauto.
  Qed.

  Theorem linv_sub_end_block s s' : linv s -> sub_end_block s = Ok s' -> linv s'.
  Proof.
    intros Hs H. unfold sub_end_block in H. eapply (rfold_inv linv); [|exact Hs|exact H].
    intros a e b (A & B & C & D) Hstep. split; [|split; [|split]].
    - eapply kinv_sub_expire_one; eauto.
    - eapply quota_sub_expire_one; eauto.
    - eapply idx_sub_expire_one; eauto.
    - eapply ledger_sub_expire_one; eauto.
  Qed.

  Theorem linv_begin_block s s' : linv s -> begin_block s = Ok s' -> linv s'.
  Proof.
    intros Hs H. apply begin_block_effect in H as (s1 & Hm & H).
    apply mint_begin_block_keeps in Hm. eapply linv_sub_begin_block; [|exact H].
    eapply linv_keeps; [exact Hm|reflexivity..|exact Hs].
  Qed.

  Theorem linv_end_block s s' : linv s -> end_block s = Ok s' -> linv s'.
  Proof.
    intros Hs H. apply end_block_effect in H as (s1 & s2 & H1 & H2 & H3).
    eapply linv_sub_end_block; [|exact H3]. eapply linv_session_end_block; [|exact H2].
    destruct Hs as (A & B & C & D). pose proof (kinv_node_end_block _ _ A H1) as A1.
    apply node_end_block_keeps in H1. split; [exact A1|split; [|split]].
    - eapply quota_inv_keeps; eauto.
    - eapply idx_sub_keeps; eauto.
    - eapply ledger_inv_keeps; eauto.
  Qed.

  (* the escrow ledger invariant is inductive (given the index invariant and the quota invariant) *)
  Theorem ledger_step s o s' :
    kinv s -> quota_inv s -> idx_sub s -> ledger_inv s -> step s o = OOk s' -> ledger_inv s'.
  Proof.
    intros A B C D H. apply step_inv in H. destruct o.
    - apply linv_begin_block in H; [apply H|].
      apply (linv_keeps _ _ _ (keeps_begin s t)); [reflexivity..|]. exact (conj A (conj B (conj C D))).
    - destruct H as [Hv H]. eapply ledger_handle; [apply kinv_clear; exact A| |exact Hv|exact H].
      eapply (ledger_inv_frame s); [..|exact D]; reflexivity.
    - destruct H as [_ ->]. apply (fold_left_inv ledger_inv).
      + intros x c Hx. pose proof (apply_pchange_keeps x c). eapply ledger_inv_keeps; eauto.
      + eapply (ledger_inv_frame s); [..|exact D]; reflexivity.
    - destruct H as (se & H & ->). apply linv_end_block in H.
      + eapply (ledger_inv_frame se); [..|apply H]; reflexivity.
      + apply (linv_keeps _ _ _ (keeps_clear s)); [reflexivity..|]. exact (conj A (conj B (conj C D))).
  Qed.

  Corollary ledger_begin_block s s' : linv s -> begin_block s = Ok s' -> ledger_inv s'.
  Proof. intros Hs H. apply (linv_begin_block s s' Hs H). Qed.
  Corollary ledger_end_block s s' : linv s -> end_block s = Ok s' -> ledger_inv s'.
  Proof. intros Hs H. apply (linv_end_block s s' Hs H). Qed.

  (* lifted to histories: needs the step-level preservation of [idx_sub] as well *)
  Hypothesis idx_step : forall s o s',
    kinv s -> quota_inv s -> idx_sub s -> ledger_inv s -> step s o = OOk s' -> idx_sub s'.

  Theorem linv_step s o s' : linv s -> step s o = OOk s' -> linv s'.
  Proof.
    intros (A & B & C & D) H. split; [|split; [|split]].
    - eapply kinv_step; eauto.
    - eapply quota_step; eauto.
    - eapply idx_step; eauto.
    - eapply ledger_step; eauto.
  Qed.

  Theorem linv_run ops : forall s i s', linv s -> run_from s ops i = RunOk s' -> linv s'.
  Proof.
    induction ops as [|o ops IH]; simpl; intros s i s' Hs H.
    - injection H as <-. exact Hs.
    - destruct (step s o) as [s1| |] eqn:E; try discriminate.
      + eapply IH; [eapply linv_step; eauto|exact H].
      + eapply IH; [|exact H]. apply (linv_keeps _ _ _ (keeps_clear s)); [reflexivity..|exact Hs].
  Qed.

End with_idx.
