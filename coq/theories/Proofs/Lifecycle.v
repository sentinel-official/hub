(* How records evolve in one operation (C04, C18): identifiers are issued by the
   counters, a record keeps its identity, statuses only move forward
   (active -> inactive-pending -> removed), nothing reappears. *)
From Hub Require Import Base.Prelude Base.Arith Model.Types Model.Keeper Model.Handlers Model.Hooks Model.Step.
From Hub Require Import Proofs.Tactics Proofs.Effects Proofs.Frames Proofs.KeysInv.

Lemma fold_pchange_keeps cs s : keeps [GPar] s (fold_left apply_pchange cs s).
Proof.
  apply (fold_left_inv (keeps [GPar] s)); [|apply keeps_refl].
  intros x c Hx. exact (keeps_trans _ _ _ _ Hx (apply_pchange_keeps x c)).
Qed.

(** * the subscription group after a purchase, a payout, a settlement, a demotion, relative to the state before *)

Lemma create_sub_for_node_subs s acc nd g h dn s' id :
  create_sub_for_node s acc nd g h dn = Ok (s', id) ->
  exists inact dep,
    id = sub_count s + 1 /\ sub_count s' = id /\
    subs s' = <[id := node_sub s acc nd g h inact dep]> (subs s) /\
    allocs s' = (if g =? 0 then allocs s else <[(id, acc) := node_sub_alloc s acc g]> (allocs s)) /\
    payouts s' = (if h =? 0 then payouts s else <[id := node_sub_payout s acc nd h dep]> (payouts s)).
Proof.
  intros H. destruct (create_sub_for_node_effect _ _ _ _ _ _ _ _ H) as (n & inact & dep & s1 & _ & _ & _ & Hd & -> & ->).
  destruct (keeps_sub _ _ _ (z_dep_add_keeps _ _ _ _ Hd) eq_refl) as (_ & Es & _ & _ & _ & _ & Ea & Ep & _).
  exists inact, dep. rewrite <- Es, <- Ea, <- Ep. repeat split.
Qed.

Lemma create_sub_for_plan_subs s acc pid dn s' id :
  create_sub_for_plan s acc pid dn = Ok (s', id) ->
  exists p, get_plan s pid = Some p /\ id = sub_count s + 1 /\ sub_count s' = id /\
    subs s' = <[id := plan_sub s acc pid dn p]> (subs s) /\
    allocs s' = <[(id, acc) := plan_sub_alloc s acc p]> (allocs s) /\ payouts s' = payouts s.
Proof.
  intros H. destruct (create_sub_for_plan_effect _ _ _ _ _ _ H)
    as (p & price & fee & s1 & s2 & Hp & _ & _ & _ & _ & _ & H1 & H2 & _ & -> & ->).
  destruct (keeps_sub _ _ _ (keeps_trans _ _ _ _ (z_send_keeps _ _ _ _ _ H1) (z_send_keeps _ _ _ _ _ H2)) eq_refl)
    as (_ & Es & _ & _ & _ & _ & Ea & Ep & _).
  exists p. split; [exact Hp|]. rewrite <- Es, <- Ea, <- Ep. repeat split.
Qed.

Lemma payout_step_subs s e s' :
  payout_step s e = Ok s' ->
  exists po, payouts s !! e.2 = Some po /\ sub_count s' = sub_count s /\ subs s' = subs s /\ allocs s' = allocs s /\
    payouts s' = <[po_id po := payout_next po]> (payouts s).
Proof.
  intros H. destruct (payout_step_effect _ _ _ H) as (po & fee & s2 & s3 & Hp & _ & _ & H2 & H3 & ->).
  destruct (keeps_sub _ _ _ (keeps_trans _ _ _ _ (z_dep_to_module_keeps _ _ _ _ _ H2) (z_dep_to_account_keeps _ _ _ _ _ H3)) eq_refl)
    as (Ec & Es & _ & _ & _ & _ & Ea & Ep & _).
  exists po. split; [exact Hp|]. simpl in Ec, Es, Ea, Ep. rewrite <- Ec, <- Es, <- Ea, <- Ep. repeat split.
Qed.

Lemma session_inactive_hook_subs s sid acc nd b s' :
  session_inactive_hook s sid acc nd b = Ok s' ->
  exists x sb, sessions s !! sid = Some x /\ subs s !! ss_sub x = Some sb /\
    sub_count s' = sub_count s /\ subs s' = subs s /\ payouts s' = payouts s /\
    (allocs s' = allocs s \/
     exists al, allocs s !! (sb_id sb, acc) = Some al /\
       allocs s' = <[(al_id al, al_addr al) := al <| al_used := clamp_used al b |>]> (allocs s)).
Proof.
  intros H. destruct (session_inactive_hook_effect _ _ _ _ _ _ H) as (x & sb & Hx & _ & Hsb & E).
  exists x, sb. refine (conj Hx (conj Hsb _)).
  destruct (sb_kind sb) as [n g h dep|pid dn].
  - destruct (negb (h =? 0)); [subst s'; auto|]. destruct E as (al & Hal & E). cbv zeta in E.
    destruct (g =? 0); [subst s'; repeat split; eauto|].
    destruct E as (prev & cur & fee & s2 & s3 & _ & _ & _ & _ & _ & _ & H2 & H3 & ->).
    destruct (keeps_sub _ _ _ (keeps_trans _ _ _ _ (z_dep_to_module_keeps _ _ _ _ _ H2) (z_dep_to_account_keeps _ _ _ _ _ H3)) eq_refl)
      as (Ec & Es & _ & _ & _ & _ & Ea & Ep & _).
    repeat split; [exact Ec|exact Es|exact Ep|right; eauto].
  - destruct E as (al & Hal & ->). repeat split; eauto.
Qed.

(* the tail shared by MsgCancel and the expiry of an active subscription: the hook demotes the active sessions of
   the subscription ([s2]), the subscription becomes pending, its payout leaves the queue *)
Definition sub_pending (s : state) (sb : subscription) : subscription :=
  sb <| sb_inactive_at := now s + p_sub_delay (pars s) |> <| sb_status := SPending |> <| sb_status_at := now s |>.

Lemma sub_demote_fields s1 k s2 sb m s' :
  sub_pending_hook s1 k = Ok s2 -> (forall x, m <> Ok x) -> detach_payout (sub_make_pending s2 sb) sb m = Ok s' ->
  keeps [GSess] s1 s2 /\ keeps [GSub] s2 s' /\
  sub_count s' = sub_count s1 /\ subs s' = <[sb_id sb := sub_pending s1 sb]> (subs s1) /\ allocs s' = allocs s1 /\
  (payouts s' = payouts s1 \/
   exists po, payouts s1 !! sb_id sb = Some po /\ payouts s' = <[po_id po := po <| po_next_at := tzero |>]> (payouts s1)) /\
  events s' = events s2 ++ [ev "subscription.EventUpdateStatus" [VS SPending; VT (canon RAcc (sb_addr sb)); VZ (sb_id sb)]].
Proof.
  intros Hh Hm H. pose proof (sub_pending_hook_keeps _ _ _ Hh) as K2. split; [exact K2|].
  destruct (keeps_sub _ _ _ K2 eq_refl) as (Ec & Es & _ & _ & _ & _ & Ea & Ep & _).
  destruct (keeps_par _ _ _ K2 eq_refl) as (P1 & _). pose proof (keeps_now _ _ _ K2 eq_refl) as N1.
  unfold sub_pending. rewrite <- Ec, <- Es, <- Ea, <- Ep, <- P1, <- N1.
  pose proof (detach_payout_effect _ _ _ _ H) as E. unfold payout_of in E.
  destruct (sb_kind sb) as [n g h dep|]; [destruct (h =? 0); [|destruct (payouts _ !! sb_id sb) as [po|] eqn:Hpo; [|destruct (Hm _ E)]]|];
    subst s'; (split; [keeps_conv|]); repeat split; auto.
  right. exists po. split; reflexivity.
Qed.

Lemma h_sub_cancel_allocs s from id s' : h_sub_cancel s from id = Ok s' -> allocs s' = allocs s.
Proof.
  intros H. destruct (h_sub_cancel_effect _ _ _ _ H) as (sb & s2 & _ & _ & _ & Hh & Hd).
  apply (sub_demote_fields _ _ _ _ Err _ Hh ltac:(intros ?; discriminate) Hd).
Qed.

Lemma sub_remove_keeps s sb s1 s' :
  sub_refund s sb = Ok s1 -> sub_delete_payout (sub_removed_state s1 sb) sb = Ok s' -> keeps [GBank; GDep; GSub] s s'.
Proof.
  intros Hr Hd.
  eapply keeps_trans; [eapply keeps_weaken; [|exact (sub_refund_keeps _ _ _ Hr)]|
    eapply keeps_trans; [eapply keeps_weaken; [|exact (sub_cleanup_keeps s1 sb)]|
      eapply keeps_trans; [|eapply keeps_weaken; [|exact (sub_delete_payout_keeps _ _ _ Hd)]]]];
    try (intros []; cbn; auto).
  unfold sub_removed_state. keeps_conv.
Qed.

Definition fwd (a b : status) : Prop := a = b \/ (a = SActive /\ b = SPending).
Lemma fwd_refl a : fwd a a. Proof. left; reflexivity. Qed.
Lemma fwd_trans a b c : fwd a b -> fwd b c -> fwd a c.
Proof. unfold fwd. intros [->|[-> ->]] [->|[E ->]]; auto; try discriminate. Qed.

Definition sub_same (x x' : subscription) : Prop :=
  sb_id x' = sb_id x /\ sb_addr x' = sb_addr x /\ sb_kind x' = sb_kind x /\ fwd (sb_status x) (sb_status x').
Definition pay_same (x x' : payout) : Prop :=
  po_id x' = po_id x /\ po_addr x' = po_addr x /\ po_node x' = po_node x /\ po_price x' = po_price x /\
  po_hours x' <= po_hours x.
Definition sess_same (x x' : session) : Prop :=
  ss_id x' = ss_id x /\ ss_sub x' = ss_sub x /\ ss_node x' = ss_node x /\ ss_addr x' = ss_addr x /\
  fwd (ss_status x) (ss_status x').
Definition plan_same (x x' : plan) : Prop :=
  pl_id x' = pl_id x /\ pl_prov x' = pl_prov x /\ pl_duration x' = pl_duration x /\ pl_gb x' = pl_gb x /\
  pl_prices x' = pl_prices x.

Lemma sub_same_refl x : sub_same x x. Proof. repeat split; auto using fwd_refl. Qed.
Lemma sub_same_trans x y z : sub_same x y -> sub_same y z -> sub_same x z.
Proof. unfold sub_same. intros (A & B & C & D) (A' & B' & C' & D'). repeat split; try congruence. eapply fwd_trans; eauto. Qed.
Lemma pay_same_refl x : pay_same x x. Proof. repeat split; auto; lia. Qed.
Lemma pay_same_trans x y z : pay_same x y -> pay_same y z -> pay_same x z.
Proof. unfold pay_same. intros (A & B & C & D & E) (A' & B' & C' & D' & E'). repeat split; try congruence; lia. Qed.
Lemma sess_same_refl x : sess_same x x. Proof. repeat split; auto using fwd_refl. Qed.
Lemma sess_same_trans x y z : sess_same x y -> sess_same y z -> sess_same x z.
Proof. unfold sess_same. intros (A & B & C & D & E) (A' & B' & C' & D' & E'). repeat split; try congruence. eapply fwd_trans; eauto. Qed.
Lemma plan_same_refl x : plan_same x x. Proof. repeat split; auto. Qed.

(** * evolution without creation (transitive; what block hooks and most handlers do) *)

Record sub_evo (s s' : state) : Prop := {
  se_cnt : sub_count s' = sub_count s;
  se_subs : forall id x', subs s' !! id = Some x' -> exists x, subs s !! id = Some x /\ sub_same x x';
  se_pay : forall id x', payouts s' !! id = Some x' -> exists x, payouts s !! id = Some x /\ pay_same x x' }.
Record sess_evo (s s' : state) : Prop := {
  ss_cnt : sess_count s' = sess_count s;
  ss_sess : forall id x', sessions s' !! id = Some x' -> exists x, sessions s !! id = Some x /\ sess_same x x' }.

Lemma sub_evo_refl s : sub_evo s s.
Proof. split; [reflexivity| |]; intros id x H; exists x; split; auto using sub_same_refl, pay_same_refl. Qed.
Lemma sub_evo_trans a b c : sub_evo a b -> sub_evo b c -> sub_evo a c.
Proof.
  intros [A1 A2 A3] [B1 B2 B3]. split; [congruence| |].
  - intros id x' H. destruct (B2 _ _ H) as (y & Hy & S1). destruct (A2 _ _ Hy) as (x & Hx & S2).
    exists x. split; [exact Hx|eapply sub_same_trans; eauto].
  - intros id x' H. destruct (B3 _ _ H) as (y & Hy & S1). destruct (A3 _ _ Hy) as (x & Hx & S2).
    exists x. split; [exact Hx|eapply pay_same_trans; eauto].
Qed.
Lemma sess_evo_refl s : sess_evo s s.
Proof. split; [reflexivity|]. intros id x H; exists x; split; auto using sess_same_refl. Qed.
Lemma sess_evo_trans a b c : sess_evo a b -> sess_evo b c -> sess_evo a c.
Proof.
  intros [A1 A2] [B1 B2]. split; [congruence|].
  intros id x' H. destruct (B2 _ _ H) as (y & Hy & S1). destruct (A2 _ _ Hy) as (x & Hx & S2).
  exists x. split; [exact Hx|eapply sess_same_trans; eauto].
Qed.

Lemma sub_evo_frame s s' :
  sub_count s' = sub_count s -> subs s' = subs s -> payouts s' = payouts s -> sub_evo s s'.
Proof. intros E1 E2 E3. split; [exact E1|rewrite E2|rewrite E3]; intros id x H; exists x; split; auto using sub_same_refl, pay_same_refl. Qed.
Lemma sess_evo_frame s s' : sess_count s' = sess_count s -> sessions s' = sessions s -> sess_evo s s'.
Proof. intros E1 E2. split; [exact E1|rewrite E2]. intros id x H; exists x; split; auto using sess_same_refl. Qed.

Lemma sub_evo_keeps T s s' : keeps T s s' -> touched GSub T = false -> sub_evo s s'.
Proof.
  intros K Ht. destruct (keeps_sub _ _ _ K Ht) as (Ec & Es & _ & _ & _ & _ & _ & Ep & _). apply sub_evo_frame; assumption.
Qed.
Lemma sess_evo_keeps T s s' : keeps T s s' -> touched GSess T = false -> sess_evo s s'.
Proof.
  intros K Ht. destruct (keeps_sess _ _ _ K Ht) as (Ec & Es & _). apply sess_evo_frame; assumption.
Qed.

(** * creation of exactly one record, with the next identifier *)

Record sub_new (s s' : state) : Prop := {
  sn_cnt : sub_count s' = sub_count s + 1;
  sn_new : exists sb, subs s' !! (sub_count s + 1) = Some sb /\ sb_id sb = sub_count s + 1 /\ sb_status sb = SActive;
  sn_subs : forall id x', id <> sub_count s + 1 -> subs s' !! id = Some x' -> subs s !! id = Some x';
  sn_keep : forall id x, subs s !! id = Some x -> id <> sub_count s + 1 -> subs s' !! id = Some x;
  sn_pay : forall id x', id <> sub_count s + 1 -> payouts s' !! id = Some x' -> payouts s !! id = Some x' }.
Record sess_new (s s' : state) : Prop := {
  ssn_cnt : sess_count s' = sess_count s + 1;
  ssn_new : exists x, sessions s' !! (sess_count s + 1) = Some x /\ ss_id x = sess_count s + 1 /\ ss_status x = SActive;
  ssn_sess : forall id x', id <> sess_count s + 1 -> sessions s' !! id = Some x' -> sessions s !! id = Some x';
  ssn_keep : forall id x, sessions s !! id = Some x -> id <> sess_count s + 1 -> sessions s' !! id = Some x }.

(** * subscriptions: per function *)

Lemma sub_new_intro s s' sb :
  sub_count s' = sub_count s + 1 -> subs s' = <[sub_count s + 1 := sb]> (subs s) ->
  sb_id sb = sub_count s + 1 -> sb_status sb = SActive ->
  (forall id, id <> sub_count s + 1 -> payouts s' !! id = payouts s !! id) -> sub_new s s'.
Proof.
  intros Ec Es Ei Ea Ep. split.
  - exact Ec.
  - exists sb. rewrite Es, lookup_insert. auto.
  - intros id x' Hne. rewrite Es, lookup_insert_ne by congruence. auto.
  - intros id x Hx Hne. rewrite Es, lookup_insert_ne by congruence. exact Hx.
  - intros id x' Hne. rewrite (Ep id Hne). auto.
Qed.

Lemma evo_create_sub_for_node s acc nd g h dn s' id :
  create_sub_for_node s acc nd g h dn = Ok (s', id) -> sub_new s s'.
Proof.
  intros H. destruct (create_sub_for_node_subs _ _ _ _ _ _ _ _ H) as (inact & dep & -> & Ec & Es & _ & Ep).
  apply (sub_new_intro _ _ _ Ec Es eq_refl eq_refl).
  intros id0 Hne. rewrite Ep. destruct (h =? 0); [reflexivity|apply lookup_insert_ne; congruence].
Qed.

Lemma evo_create_sub_for_plan s acc pid dn s' id :
  create_sub_for_plan s acc pid dn = Ok (s', id) -> sub_new s s'.
Proof.
  intros H. destruct (create_sub_for_plan_subs _ _ _ _ _ _ H) as (p & _ & -> & Ec & Es & _ & Ep).
  apply (sub_new_intro _ _ _ Ec Es eq_refl eq_refl). intros id0 _. rewrite Ep. reflexivity.
Qed.

Lemma evo_sub_demote s1 k s2 sb m s' :
  kinv_sub s1 -> subs s1 !! sb_id sb = Some sb -> sb_status sb = SActive ->
  sub_pending_hook s1 k = Ok s2 -> (forall x, m <> Ok x) -> detach_payout (sub_make_pending s2 sb) sb m = Ok s' -> sub_evo s1 s'.
Proof.
  intros Hk Hsb Hact Hh Hm H.
  destruct (sub_demote_fields _ _ _ _ _ _ Hh Hm H) as (_ & _ & Ec & Es & _ & Hp & _).
  split; [exact Ec|rewrite Es|].
  - intros id0 y' Hl. apply lookup_insert_Some in Hl as [[<- <-]|[_ Hl]]; [|exists y'; split; auto using sub_same_refl].
    exists sb. split; [exact Hsb|]. repeat split. right. auto.
  - destruct Hp as [->|(po & Hpo & ->)]; intros id0 y' Hl; [exists y'; split; auto using pay_same_refl|].
    destruct (k_po _ Hk _ _ Hpo) as (E1 & _).
    apply lookup_insert_Some in Hl as [[<- <-]|[_ Hl]]; [|exists y'; split; auto using pay_same_refl].
    exists po. split; [rewrite E1; exact Hpo|]. repeat split. simpl. lia.
Qed.

Lemma evo_h_sub_cancel s from id s' : kinv_sub s -> h_sub_cancel s from id = Ok s' -> sub_evo s s'.
Proof.
  intros Hk H. destruct (h_sub_cancel_effect _ _ _ _ H) as (sb & s2 & Hsb & Hact & _ & Hp & Hd).
  destruct (k_sub _ Hk _ _ Hsb) as (E1 & _).
  eapply sub_evo_trans; [|eapply evo_sub_demote; [| | |exact Hp| |exact Hd]].
  - apply sub_evo_frame; reflexivity.
  - eapply kinv_sub_frame; [..|exact Hk]; reflexivity.
  - rewrite E1. exact Hsb.
  - exact Hact.
  - discriminate.
Qed.

Lemma evo_payout_step s e s' : kinv_sub s -> payout_step s e = Ok s' -> sub_evo s s'.
Proof.
  intros Hk H. destruct (payout_step_subs _ _ _ H) as (po & Hp & Ec & Es & _ & Epo).
  destruct (k_po _ Hk _ _ Hp) as (E1 & _).
  split; [exact Ec|rewrite Es|rewrite Epo].
  - intros id0 y' Hl. exists y'. split; auto using sub_same_refl.
  - intros id0 y' Hl. apply lookup_insert_Some in Hl as [[<- <-]|[_ Hl]]; [|exists y'; split; auto using pay_same_refl].
    exists po. split; [rewrite E1; exact Hp|]. repeat split. simpl. lia.
Qed.

Lemma sub_cleanup_subs s sb :
  subs (sub_cleanup s sb) = subs s /\ payouts (sub_cleanup s sb) = payouts s /\ sub_count (sub_cleanup s sb) = sub_count s.
Proof.
  unfold sub_cleanup. destruct (sb_kind sb); [auto|].
  apply (fold_left_inv (fun y => subs y = subs s /\ payouts y = payouts s /\ sub_count y = sub_count s)); auto.
Qed.

Lemma evo_sub_expire_one s e s' : kinv_sub s -> sub_expire_one s e = Ok s' -> sub_evo s s'.
Proof.
  intros Hk H. destruct (sub_expire_one_effect _ _ _ H) as (sb & Hsb & [(Hact & s1 & Hp & Hd)|(_ & s1 & Hr & Hd)]).
  - destruct (k_sub _ Hk _ _ Hsb) as (E1 & _).
    eapply sub_evo_trans; [|eapply evo_sub_demote; [| | |exact Hp| |exact Hd]].
    + apply sub_evo_frame; reflexivity.
    + eapply kinv_sub_frame; [..|exact Hk]; reflexivity.
    + rewrite E1. exact Hsb.
    + exact Hact.
    + discriminate.
  - destruct (keeps_sub _ _ _ (sub_refund_keeps _ _ _ Hr) eq_refl) as (R1 & R2 & _ & _ & _ & _ & _ & R3 & _).
    destruct (sub_cleanup_subs s1 sb) as (F1 & F2 & F3).
    assert (G : sub_count s' = sub_count s /\ subs s' = delete (sb_id sb) (subs s) /\
                (payouts s' = payouts s \/ exists k, payouts s' = delete k (payouts s))).
    { apply sub_delete_payout_effect in Hd. destruct (payout_of _ sb) as [[po|]|]; [|destruct Hd|]; subst s';
        cbn [sub_removed_state payout_delete_state sub_count subs payouts emit set]; rewrite ?F1, ?F2, ?F3, ?R1, ?R2, ?R3; eauto. }
    destruct G as (Gc & Gs & Gp). split; [exact Gc|rewrite Gs|].
    + intros id0 y' Hl. apply lookup_delete_Some in Hl as [_ Hl]. exists y'. split; auto using sub_same_refl.
    + destruct Gp as [->|[k ->]]; intros id0 y' Hl; [|apply lookup_delete_Some in Hl as [_ Hl]]; exists y'; split; auto using pay_same_refl.
Qed.

(** * sessions: per function *)

Lemma evo_session_make_pending s x :
  sessions s !! ss_id x = Some x -> ss_status x = SActive -> sess_evo s (session_make_pending s x).
Proof.
  intros Hx Hst. unfold session_make_pending. split; simpl; [reflexivity|].
  intros id0 y' Hl. apply lookup_insert_Some in Hl as [[<- <-]|[_ Hl]]; [|exists y'; split; auto using sess_same_refl].
  exists x. split; [exact Hx|]. repeat split; simpl; auto. right. auto.
Qed.

Lemma evo_sub_pending_hook s id s' : kinv_sess s -> sub_pending_hook s id = Ok s' -> sess_evo s s'.
Proof.
  intros Hk H. unfold sub_pending_hook in H.
  assert (G : kinv_sess s' /\ sess_evo s s').
  { eapply (rfold_inv (fun y => kinv_sess y /\ sess_evo s y)); [|split; [exact Hk|apply sess_evo_refl]|exact H].
    intros a sid b [Ha Hev] Hstep. cbv beta in Hstep. destruct (sessions a !! sid) as [x|] eqn:Hx; [|discriminate].
    destruct (k_ss _ Ha _ _ Hx) as (E1 & _).
    case_bool_decide as Hact; injection Hstep as <-; [|auto]. split.
    - apply kinv_session_make_pending; [exact Ha|rewrite E1; exact Hx].
    - eapply sess_evo_trans; [exact Hev|]. apply evo_session_make_pending; [rewrite E1; exact Hx|exact Hact]. }
  apply G.
Qed.

Lemma evo_h_sess_start s from id nd s' : h_sess_start s from id nd = Ok s' -> sess_new s s'.
Proof.
  intros H. destruct (h_sess_start_effect _ _ _ _ _ H) as (sb & n & latest & _ & _ & _ & _ & _ & _ & _ & _ & ->).
  split; cbn [session_start_state sess_count sessions emit set].
  - reflexivity.
  - eexists. rewrite lookup_insert. auto.
  - intros id0 y' Hne. rewrite lookup_insert_ne by congruence. auto.
  - intros id0 y Hl Hne. rewrite lookup_insert_ne by congruence. exact Hl.
Qed.

Lemma evo_h_sess_update s from id u d du ok s' : h_sess_update s from id u d du ok = Ok s' -> sess_evo s s'.
Proof.
  intros H. destruct (h_sess_update_effect _ _ _ _ _ _ _ _ H) as (x & Hx & _ & _ & _ & ->).
  split; cbn [session_update_state sess_count sessions emit set]; [reflexivity|].
  intros id0 y' Hl. apply lookup_insert_Some in Hl as [[<- <-]|[_ Hl]]; [|exists y'; split; auto using sess_same_refl].
  exists x. split; [exact Hx|]. unfold session_reported. destruct (bool_decide (ss_status x = SActive)); repeat split; apply fwd_refl.
Qed.

Lemma evo_h_sess_end s from id s' : kinv_sess s -> h_sess_end s from id = Ok s' -> sess_evo s s'.
Proof.
  intros Hk H. destruct (h_sess_end_effect _ _ _ _ H) as (x & Hx & Hact & _ & ->).
  destruct (k_ss _ Hk _ _ Hx) as (E1 & _). apply evo_session_make_pending; [rewrite E1; exact Hx|exact Hact].
Qed.

Lemma evo_session_expire_one s e s' : kinv_sess s -> session_expire_one s e = Ok s' -> sess_evo s s'.
Proof.
  intros Hk H. destruct (session_expire_one_effect _ _ _ H) as (x & Hx & [(Hact & ->)|(_ & _ & s1 & Hh & ->)]).
  - destruct (k_ss _ Hk _ _ Hx) as (E1 & _).
    split; cbn [session_make_pending sess_count sessions emit set]; [reflexivity|].
    intros id0 y' Hl. apply lookup_insert_Some in Hl as [[<- <-]|[_ Hl]]; [|exists y'; split; auto using sess_same_refl].
    exists x. split; [rewrite E1; exact Hx|]. repeat split. right. auto.
  - destruct (keeps_sess _ _ _ (session_inactive_hook_keeps _ _ _ _ _ _ Hh) eq_refl) as (Ec & Es & _).
    split; cbn [session_remove_state sess_count sessions emit set]; [exact Ec|rewrite Es].
    intros id0 y' Hl. apply lookup_delete_Some in Hl as [_ Hl]. exists y'. split; auto using sess_same_refl.
Qed.

(** * one operation *)

Lemma sess_step_cancel s from id s' : kinv s -> h_sub_cancel s from id = Ok s' -> sess_evo s s'.
Proof.
  intros Hi H. destruct (h_sub_cancel_effect _ _ _ _ H) as (sb & s2 & _ & _ & _ & Hp & Hd).
  destruct (sub_demote_fields _ _ _ _ Err _ Hp ltac:(intros ?; discriminate) Hd) as (_ & K & _).
  eapply sess_evo_trans; [|exact (sess_evo_keeps _ _ _ K eq_refl)].
  eapply sess_evo_trans; [|eapply evo_sub_pending_hook; [|exact Hp]; eapply kinv_sess_frame; [..|apply (ki_sess _ Hi)]; reflexivity].
  apply sess_evo_frame; reflexivity.
Qed.

Lemma sess_step_handle s m s' :
  kinv s -> handle s m = Ok s' -> sess_evo s s' \/ (sess_new s s' /\ exists f i n, m = MSessStart f i n).
Proof.
  intros Hi H.
  destruct (touched GSess (msg_groups m)) eqn:Ht; [|left; exact (sess_evo_keeps _ _ _ (handle_frame _ _ _ H) Ht)].
  destruct m; try discriminate Ht; simpl in H.
  - left. eapply sess_step_cancel; eauto.
  - right. split; [exact (evo_h_sess_start _ _ _ _ _ H)|eauto].
  - left. exact (evo_h_sess_update _ _ _ _ _ _ _ _ H).
  - left. eapply evo_h_sess_end; [apply Hi|exact H].
Qed.

Lemma sub_new_emit e s s1 : sub_new s s1 -> sub_new s (emit e s1).
Proof. intros [A B C D E]. split; assumption. Qed.

Lemma sub_step_handle s m s' : kinv s -> handle s m = Ok s' -> sub_evo s s' \/ sub_new s s'.
Proof.
  intros Hi H.
  destruct (touched GSub (msg_groups m)) eqn:Ht; [|left; exact (sub_evo_keeps _ _ _ (handle_frame _ _ _ H) Ht)].
  destruct m; try discriminate Ht; simpl in H.
  - right. destruct (h_node_subscribe_effect _ _ _ _ _ _ _ H) as (s1 & id & _ & _ & Hc & ->). apply sub_new_emit. eapply evo_create_sub_for_node; eauto.
  - right. destruct (h_plan_subscribe_effect _ _ _ _ _ H) as (s1 & id0 & Hc & ->).
    apply sub_new_emit. eapply evo_create_sub_for_plan; eauto.
  - left. eapply evo_h_sub_cancel; [apply Hi|exact H].
  - left. destruct (h_sub_allocate_effect _ _ _ _ _ _ H) as (sb & fal & E). cbv zeta in E. destruct E as (_ & _ & _ & _ & _ & _ & _ & _ & _ & ->).
    apply sub_evo_frame; reflexivity.
Qed.

Lemma sub_evo_rfold {A} (f : state -> A -> res state) l : forall s s',
  kinv_sub s -> (forall a x b, kinv_sub a -> f a x = Ok b -> kinv_sub b /\ sub_evo a b) ->
  rfold f l s = Ok s' -> kinv_sub s' /\ sub_evo s s'.
Proof.
  intros s s' Hk Hf H. eapply (rfold_inv (fun y => kinv_sub y /\ sub_evo s y)); [|split; [exact Hk|apply sub_evo_refl]|exact H].
  intros a x b [Ha Hev] Hstep. destruct (Hf _ _ _ Ha Hstep) as [Hb Hab]. split; [exact Hb|eapply sub_evo_trans; eauto].
Qed.

Lemma sess_evo_rfold {A} (f : state -> A -> res state) l : forall s s',
  kinv s -> (forall a x b, kinv a -> f a x = Ok b -> kinv b /\ sess_evo a b /\ sub_evo a b) ->
  rfold f l s = Ok s' -> kinv s' /\ sess_evo s s' /\ sub_evo s s'.
Proof.
  intros s s' Hk Hf H.
  eapply (rfold_inv (fun y => kinv y /\ sess_evo s y /\ sub_evo s y)); [|split; [exact Hk|split; [apply sess_evo_refl|apply sub_evo_refl]]|exact H].
  intros a x b (Ha & Hev1 & Hev2) Hstep. destruct (Hf _ _ _ Ha Hstep) as (Hb & Hab1 & Hab2).
  split; [exact Hb|split; [eapply sess_evo_trans|eapply sub_evo_trans]; eauto].
Qed.

Lemma session_expire_one_sub_fields s e s' :
  session_expire_one s e = Ok s' -> sub_count s' = sub_count s /\ subs s' = subs s /\ payouts s' = payouts s.
Proof.
  intros H. destruct (session_expire_one_effect _ _ _ H) as (x & _ & [(_ & ->)|(_ & _ & s1 & Hh & ->)]); [auto|].
  destruct (session_inactive_hook_subs _ _ _ _ _ _ Hh) as (x0 & sb & _ & _ & Ec & Es & Ep & _). auto.
Qed.

Lemma evo_session_expire_one_sub s e s' : kinv s -> session_expire_one s e = Ok s' -> sub_evo s s'.
Proof. intros _ H. destruct (session_expire_one_sub_fields _ _ _ H) as (Ec & Es & Ep). apply sub_evo_frame; assumption. Qed.

Lemma session_end_block_subs s s' : session_end_block s = Ok s' -> subs s' = subs s.
Proof.
  apply (rfold_rel (fun a b => subs b = subs a)); [reflexivity|intros a b c E1 E2; rewrite E2; exact E1|].
  intros a e b H. apply (session_expire_one_sub_fields _ _ _ H).
Qed.

Lemma evo_sub_expire_one_sess s e s' : kinv s -> sub_expire_one s e = Ok s' -> sess_evo s s'.
Proof.
  intros Hi H. destruct (sub_expire_one_effect _ _ _ H) as (sb & _ & [(_ & s1 & Hp & Hd)|(_ & s1 & Hr & Hd)]).
  - destruct (sub_demote_fields _ _ _ _ Panic _ Hp ltac:(intros ?; discriminate) Hd) as (_ & K & _).
    eapply sess_evo_trans; [|exact (sess_evo_keeps _ _ _ K eq_refl)].
    eapply sess_evo_trans; [|eapply evo_sub_pending_hook; [|exact Hp]; eapply kinv_sess_frame; [..|apply (ki_sess _ Hi)]; reflexivity].
    apply sess_evo_frame; reflexivity.
  - eapply sess_evo_trans; [|exact (sess_evo_keeps _ _ _ (sub_remove_keeps _ _ _ _ Hr Hd) eq_refl)].
    apply sess_evo_frame; reflexivity.
Qed.

Lemma sub_evo_clear s x : sub_evo (clear_events s) x -> sub_evo s x.
Proof. intros [A B C]. split; [exact A|exact B|exact C]. Qed.
Lemma sess_evo_clear s x : sess_evo (clear_events s) x -> sess_evo s x.
Proof. intros [A B]. split; [exact A|exact B]. Qed.
Lemma sub_new_clear s x : sub_new (clear_events s) x -> sub_new s x.
Proof. intros [A B C D E]. split; [exact A|exact B|exact C|exact D|exact E]. Qed.
Lemma sess_new_clear s x : sess_new (clear_events s) x -> sess_new s x.
Proof. intros [A B C D]. split; [exact A|exact B|exact C|exact D]. Qed.

(* one operation: records only evolve, except that a purchase creates one subscription and MsgStart one session *)
Theorem evo_step_cause s o s' :
  kinv s -> step s o = OOk s' ->
  (sub_evo s s' \/ sub_new s s') /\ (sess_evo s s' \/ (sess_new s s' /\ exists f i n, o = OTx (MSessStart f i n))).
Proof.
  intros Hi Hstep. apply step_inv in Hstep. destruct o.
  - rename Hstep into H. rename s' into x.
    apply begin_block_effect in H as (s1 & Hm & H). apply mint_begin_block_keeps in Hm.
    split; left.
    + eapply sub_evo_trans; [|eapply sub_evo_trans; [exact (sub_evo_keeps _ _ _ Hm eq_refl)|]].
      { apply sub_evo_frame; reflexivity. }
      unfold sub_begin_block in H. eapply sub_evo_rfold; [| |exact H].
      * apply (kinv_sub_keeps _ _ _ Hm eq_refl). eapply kinv_sub_frame; [..|apply (ki_sub _ Hi)]; reflexivity.
      * intros a0 e0 b0 Ha Hs. split; [eapply kinv_payout_step|eapply evo_payout_step]; eauto.
    + eapply sess_evo_trans; [|eapply sess_evo_trans; [exact (sess_evo_keeps _ _ _ Hm eq_refl)|]].
      { apply sess_evo_frame; reflexivity. }
      exact (sess_evo_keeps _ _ _ (sub_begin_block_keeps _ _ H) eq_refl).
  - destruct Hstep as [_ H]. rename s' into x.
    assert (Hi0 : kinv (clear_events s)) by (apply kinv_clear; exact Hi).
    destruct (sub_step_handle _ _ _ Hi0 H) as [A|A]; destruct (sess_step_handle _ _ _ Hi0 H) as [B|(B & f & i & n & ->)]; split;
      eauto 8 using sub_evo_clear, sess_evo_clear, sub_new_clear, sess_new_clear.
  - destruct Hstep as [_ ->].
    pose proof (fold_pchange_keeps cs (clear_events s)) as K. split; left.
    + apply sub_evo_clear. exact (sub_evo_keeps _ _ _ K eq_refl).
    + apply sess_evo_clear. exact (sess_evo_keeps _ _ _ K eq_refl).
  - destruct Hstep as (se & H & ->).
    apply end_block_effect in H as (s1 & s2 & H1 & H2 & H3).
    assert (Hi0 : kinv (clear_events s)) by (apply kinv_clear; exact Hi).
    pose proof (kinv_node_end_block _ _ Hi0 H1) as Hi1. apply node_end_block_keeps in H1.
    assert (G2 : kinv s2 /\ sess_evo s1 s2 /\ sub_evo s1 s2).
    { unfold session_end_block in H2. eapply sess_evo_rfold; [exact Hi1| |exact H2].
      intros a0 e0 b0 Ha Hs. split; [eapply kinv_session_expire_one; eauto|].
      split; [eapply evo_session_expire_one; [apply Ha|exact Hs]|eapply evo_session_expire_one_sub; eauto]. }
    destruct G2 as (Hi2 & E2a & E2b).
    assert (G3 : kinv se /\ sess_evo s2 se /\ sub_evo s2 se).
    { unfold sub_end_block in H3. eapply sess_evo_rfold; [exact Hi2| |exact H3].
      intros a0 e0 b0 Ha Hs. split; [eapply kinv_sub_expire_one; eauto|].
      split; [eapply evo_sub_expire_one_sess; eauto|eapply evo_sub_expire_one; [apply Ha|exact Hs]]. }
    destruct G3 as (Hi3 & E3a & E3b).
    split; left.
    + apply sub_evo_clear. eapply sub_evo_trans; [exact (sub_evo_keeps _ _ _ H1 eq_refl)|].
      eapply sub_evo_trans; [exact E2b|]. eapply sub_evo_trans; [exact E3b|]. apply sub_evo_frame; reflexivity.
    + apply sess_evo_clear. eapply sess_evo_trans; [exact (sess_evo_keeps _ _ _ H1 eq_refl)|].
      eapply sess_evo_trans; [exact E2a|]. eapply sess_evo_trans; [exact E3a|]. apply sess_evo_frame; reflexivity.
Qed.

Theorem evo_step s o s' :
  kinv s -> step s o = OOk s' -> (sub_evo s s' \/ sub_new s s') /\ (sess_evo s s' \/ sess_new s s').
Proof. intros Hi H. destruct (evo_step_cause _ _ _ Hi H) as [A [B|[B _]]]; auto. Qed.

(** * plans: created with the next identifier, never removed, never re-identified *)

Definition plan_evo (s s' : state) : Prop :=
  plan_count s' = plan_count s /\
  (forall id p', get_plan s' id = Some p' -> exists p, get_plan s id = Some p /\ plan_same p p') /\
  (forall id p, get_plan s id = Some p -> exists p', get_plan s' id = Some p' /\ plan_same p p').
Definition plan_new (s s' : state) : Prop :=
  plan_count s' = plan_count s + 1 /\
  (exists p, get_plan s' (plan_count s + 1) = Some p /\ pl_id p = plan_count s + 1 /\ get_plan s (plan_count s + 1) = None) /\
  (forall id, id <> plan_count s + 1 -> get_plan s' id = get_plan s id).

Lemma plan_evo_frame s s' :
  plan_count s' = plan_count s -> plan_act s' = plan_act s -> plan_inact s' = plan_inact s -> plan_evo s s'.
Proof.
  intros E1 E2 E3. unfold plan_evo, get_plan. rewrite E1, E2, E3. split; [reflexivity|].
  split; intros id p H; exists p; split; auto using plan_same_refl.
Qed.

Lemma plan_evo_keeps T s s' : keeps T s s' -> touched GPl T = false -> plan_evo s s'.
Proof.
  intros K Ht. destruct (keeps_plan _ _ _ K Ht) as (Ea & Ei & Ec & _). apply plan_evo_frame; assumption.
Qed.

Lemma evo_h_plan_create s from du g pr s' : kinv_plan s -> h_plan_create s from du g pr = Ok s' -> plan_new s s'.
Proof.
  intros [A B D C] H. unfold h_plan_create in H. res_inv.
  match goal with Hs : set_plan _ _ = Ok _ |- _ => unfold set_plan in Hs; simpl in Hs; injection Hs as <- end.
  assert (F1 : plan_act s !! (plan_count s + 1) = None).
  { destruct (plan_act s !! (plan_count s + 1)) eqn:E; [|reflexivity]. destruct (A _ _ E) as (_ & _ & ?). lia. }
  assert (F2 : plan_inact s !! (plan_count s + 1) = None).
  { destruct (plan_inact s !! (plan_count s + 1)) eqn:E; [|reflexivity]. destruct (B _ _ E) as (_ & _ & ?). lia. }
  unfold plan_new, get_plan. simpl. split; [reflexivity|]. split.
  - eexists. rewrite F1, lookup_insert. split; [reflexivity|]. split; [reflexivity|]. exact F2.
  - intros id0 Hne. rewrite lookup_insert_ne by congruence. reflexivity.
Qed.

Lemma evo_h_plan_update_status s from id st s' : kinv_plan s -> h_plan_update_status s from id st = Ok s' -> plan_evo s s'.
Proof.
  intros Hk H. unfold h_plan_update_status in H. destruct (get_plan s id) as [p|] eqn:Hg; [|discriminate].
  destruct (get_plan_kinv _ _ _ Hk Hg) as (Ea & Hr & Hcase).
  apply rbind_ok in H as (u & _ & H). apply rbind_ok in H as (s3 & Hset & H). injection H as <-.
  assert (Hst : st = SActive \/ st = SInactive).
  { unfold set_plan in Hset. simpl in Hset. destruct st; try discriminate; auto. }
  assert (G : forall id0, get_plan s3 id0 = if bool_decide (id0 = id) then Some (p <| pl_status := st |> <| pl_status_at := now s |>) else get_plan s id0).
  { intros id0. unfold set_plan in Hset. simpl in Hset. unfold get_plan.
    destruct Hcase as [(E & E1 & E2)|(E & E1 & E2)]; destruct Hst as [-> | ->]; rewrite E, Ea in Hset;
      repeat (case_bool_decide; try (exfalso; intuition congruence)); injection Hset as <-; simpl; subst;
      rewrite ?lookup_insert, ?lookup_delete, ?lookup_insert_ne, ?lookup_delete_ne by congruence; rewrite ?E1, ?E2; try reflexivity.
    all: destruct (plan_act s !! id0); reflexivity. }
  assert (Hc : plan_count s3 = plan_count s).
  { unfold set_plan in Hset. simpl in Hset. destruct st; try discriminate; injection Hset as <-; repeat case_bool_decide; reflexivity. }
  unfold plan_evo. simpl. split; [exact Hc|]. split.
  - intros id0 p' Hp'. change (get_plan s3 id0 = Some p') in Hp'. rewrite G in Hp'.
    destruct (decide (id0 = id)) as [->|Hne].
    + rewrite bool_decide_eq_true_2 in Hp' by reflexivity. injection Hp' as <-.
      exists p. split; [exact Hg|]. repeat split; reflexivity.
    + rewrite bool_decide_eq_false_2 in Hp' by exact Hne. exists p'. split; auto using plan_same_refl.
  - intros id0 p0 Hp0. change (exists p', get_plan s3 id0 = Some p' /\ plan_same p0 p'). rewrite G.
    destruct (decide (id0 = id)) as [->|Hne].
    + rewrite bool_decide_eq_true_2 by reflexivity. rewrite Hg in Hp0. injection Hp0 as <-.
      eexists. split; [reflexivity|]. repeat split; reflexivity.
    + rewrite bool_decide_eq_false_2 by exact Hne. exists p0. split; auto using plan_same_refl.
Qed.

Theorem plan_step s o s' : kinv s -> step s o = OOk s' -> plan_evo s s' \/ plan_new s s'.
Proof.
  intros Hi Hstep. apply step_inv in Hstep. destruct o.
  - rename Hstep into H. rename s' into x. left.
    exact (plan_evo_keeps _ _ _ (begin_block_keeps _ _ H) eq_refl).
  - destruct Hstep as [_ H]. rename s' into x.
    destruct (touched GPl (msg_groups m)) eqn:Ht; [|left; exact (plan_evo_keeps _ _ _ (handle_frame _ _ _ H) Ht)].
    assert (Hk : kinv_plan (clear_events s)) by (eapply kinv_plan_frame; [..|apply (ki_plan _ Hi)]; reflexivity).
    destruct m; try discriminate Ht; simpl in H.
    + right. exact (evo_h_plan_create _ _ _ _ _ _ Hk H).
    + left. exact (evo_h_plan_update_status _ _ _ _ _ Hk H).
    + left. apply plan_evo_frame; unfold h_plan_link in H; res_inv; reflexivity.
    + left. apply plan_evo_frame; unfold h_plan_unlink in H; res_inv; reflexivity.
  - destruct Hstep as [_ ->]. left.
    exact (plan_evo_keeps _ _ _ (fold_pchange_keeps cs (clear_events s)) eq_refl).
  - destruct Hstep as (se & H & ->). left.
    destruct (keeps_plan _ _ _ (end_block_keeps _ _ H) eq_refl) as (E1 & E2 & E3 & _). apply plan_evo_frame; assumption.
Qed.

(** * consequences used by C18 *)

(* an identifier at or below the counter that is not in use is never used again *)
Lemma sub_id_not_reissued s o s' id :
  kinv s -> step s o = OOk s' -> id <= sub_count s -> subs s !! id = None -> subs s' !! id = None /\ id <= sub_count s'.
Proof.
  intros Hi H Hle Hn. destruct (proj1 (evo_step _ _ _ Hi H)) as [[A B C]|[A B C D E]].
  - split; [|lia]. destruct (subs s' !! id) as [x'|] eqn:E; [|reflexivity]. destruct (B _ _ E) as (x & Hx & _). congruence.
  - split; [|lia]. destruct (subs s' !! id) as [x'|] eqn:E'; [|reflexivity]. rewrite (C id x') in Hn; [discriminate|lia|exact E'].
Qed.

Lemma sess_id_not_reissued s o s' id :
  kinv s -> step s o = OOk s' -> id <= sess_count s -> sessions s !! id = None -> sessions s' !! id = None /\ id <= sess_count s'.
Proof.
  intros Hi H Hle Hn. destruct (proj2 (evo_step _ _ _ Hi H)) as [[A B]|[A B C D]].
  - split; [|lia]. destruct (sessions s' !! id) as [x'|] eqn:E; [|reflexivity]. destruct (B _ _ E) as (x & Hx & _). congruence.
  - split; [|lia]. destruct (sessions s' !! id) as [x'|] eqn:E'; [|reflexivity]. rewrite (C id x') in Hn; [discriminate|lia|exact E'].
Qed.

Theorem ids_never_reissued ops : forall s i s' id,
  kinv s -> run_from s ops i = RunOk s' ->
  (id <= sub_count s -> subs s !! id = None -> subs s' !! id = None) /\
  (id <= sess_count s -> sessions s !! id = None -> sessions s' !! id = None).
Proof.
  induction ops as [|o ops IH]; simpl; intros s i s' id Hi H.
  - injection H as <-. auto.
  - destruct (step s o) as [s1| |] eqn:E; try discriminate.
    + pose proof (kinv_step _ _ _ Hi E) as Hi1. destruct (IH _ _ _ id Hi1 H) as [I1 I2]. split; intros Hle Hn.
      * destruct (sub_id_not_reissued _ _ _ id Hi E Hle Hn). auto.
      * destruct (sess_id_not_reissued _ _ _ id Hi E Hle Hn). auto.
    + destruct (IH _ _ _ id (kinv_clear _ Hi) H) as [I1 I2]. split; auto.
Qed.
