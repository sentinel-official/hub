(* C06: bandwidth quota is conserved.  0 <= used <= granted for every allocation,
   used never decreases and grows only at the settlement of a session of that very
   holder, by at most the bytes the session reported; the granted bytes of the
   allocations of a subscription always add up to what was bought. *)
From Hub Require Import Base.Prelude Base.Arith Model.Types Model.Keeper Model.Handlers Model.Hooks Model.Step.
From Hub Require Import Proofs.Tactics Proofs.Effects Proofs.Frames Proofs.KeysInv Proofs.Lifecycle.

Definition alloc_ok (al : allocation) : Prop := 0 <= al_used al <= al_granted al.

Record quota_inv (s : state) : Prop := {
  q_alloc : map_Forall (fun _ al => alloc_ok al) (allocs s);
  q_plans : forall id p, get_plan s id = Some p -> 0 <= pl_gb p;
  q_sess : map_Forall (fun _ x => 0 <= ss_up x /\ 0 <= ss_down x) (sessions s) }.

(** * sum of the granted bytes of one subscription *)

Definition granted_of (id : Z) (al : allocation) : Z := if bool_decide (al_id al = id) then al_granted al else 0.
Definition gsum (s : state) (id : Z) : Z := msum (granted_of id) (allocs s).

Lemma msum_zero {K} `{Countable K} {V} (f : V -> Z) (m : gmap K V) :
  map_Forall (fun _ v => f v = 0) m -> msum f m = 0.
Proof.
  unfold msum. induction m as [|k v m Hk IH] using map_ind; intros Hall; [apply map_fold_empty|].
  rewrite (map_fold_insert_L (fun _ v acc => acc + f v)); [| intros; lia | exact Hk].
  apply map_Forall_insert in Hall as [Hv Hall]; [|exact Hk]. rewrite IH by exact Hall. lia.
Qed.

Lemma gsum_fresh s id : kinv_sub s -> sub_count s < id -> gsum s id = 0.
Proof.
  intros Hk Hlt. apply msum_zero. intros k al Hal. unfold granted_of.
  destruct (k_al _ Hk _ _ Hal) as (E1 & _ & E3). case_bool_decide; [lia|reflexivity].
Qed.

Lemma gsum_insert s k al id :
  msum (granted_of id) (<[k := al]> (allocs s)) =
  gsum s id - (match allocs s !! k with Some w => granted_of id w | None => 0 end) + granted_of id al.
Proof. apply msum_insert. Qed.

Lemma gsum_delete s k id :
  msum (granted_of id) (delete k (allocs s)) =
  gsum s id - (match allocs s !! k with Some w => granted_of id w | None => 0 end).
Proof. apply msum_delete'. Qed.

(** * the plan gigabytes and the reported bandwidth stay non-negative *)

Lemma get_plan_set_plan s p s' id q :
  set_plan s p = Ok s' -> get_plan s' id = Some q -> q = p \/ get_plan s id = Some q \/
  (exists q0, (plan_act s !! id = Some q0 \/ plan_inact s !! id = Some q0) /\ q = q0).
Proof.
  unfold set_plan, get_plan. destruct (pl_status p); try discriminate; intros [= <-]; simpl.
  - destruct (decide (pl_id p = id)) as [->|Hne]; [rewrite lookup_insert; intros [= <-]; auto|].
    rewrite lookup_insert_ne by exact Hne. auto.
  - destruct (plan_act s !! id) eqn:E; [intros [= <-]; right; left; reflexivity|].
    destruct (decide (pl_id p = id)) as [->|Hne]; [rewrite lookup_insert; intros [= <-]; auto|].
    rewrite lookup_insert_ne by exact Hne. auto.
Qed.

(** * allocations: per function *)

Lemma quota_alloc_frame s s' : allocs s' = allocs s -> map_Forall (fun _ al => alloc_ok al) (allocs s) -> map_Forall (fun _ al => alloc_ok al) (allocs s').
Proof. intros ->. auto. Qed.

Lemma alloc_ok_create_node s acc nd g h dn s' id :
  0 <= g -> map_Forall (fun _ al => alloc_ok al) (allocs s) ->
  create_sub_for_node s acc nd g h dn = Ok (s', id) -> map_Forall (fun _ al => alloc_ok al) (allocs s').
Proof.
  intros Hg Hall H. destruct (create_sub_for_node_subs _ _ _ _ _ _ _ _ H) as (inact & dep & _ & _ & _ & -> & _).
  destruct (g =? 0); [exact Hall|]. apply map_Forall_insert_2; [|exact Hall]. unfold alloc_ok, node_sub_alloc, GB. simpl. lia.
Qed.

Lemma alloc_ok_create_plan s acc pid dn s' id :
  (forall p, get_plan s pid = Some p -> 0 <= pl_gb p) -> map_Forall (fun _ al => alloc_ok al) (allocs s) ->
  create_sub_for_plan s acc pid dn = Ok (s', id) -> map_Forall (fun _ al => alloc_ok al) (allocs s').
Proof.
  intros Hp Hall H.
  destruct (create_sub_for_plan_subs _ _ _ _ _ _ H) as (p & Hg & _ & _ & _ & -> & _). specialize (Hp p Hg).
  apply map_Forall_insert_2; [|exact Hall]. unfold alloc_ok, plan_sub_alloc, GB. simpl. lia.
Qed.

(* what MsgAllocate does to the two allocations *)
Lemma h_sub_allocate_spec s from id to b s' :
  h_sub_allocate s from id to b = Ok s' ->
  exists sb fal,
    subs s !! id = Some sb /\ allocs s !! (id, ta_bytes from) = Some fal /\ ta_bytes from <> ta_bytes to /\
    let tg := match allocs s !! (id, ta_bytes to) with Some t => al_granted t | None => 0 end in
    let tu := match allocs s !! (id, ta_bytes to) with Some t => al_used t | None => 0 end in
    let tal := match allocs s !! (id, ta_bytes to) with Some t => t | None => {| al_id := id; al_addr := ta_bytes to; al_granted := 0; al_used := 0 |} end in
    al_used fal <= al_granted fal + tg - b /\ tu <= b /\
    allocs s' = <[(id, ta_bytes to) := tal <| al_granted := b |>]>
                  (<[(id, ta_bytes from) := fal <| al_granted := al_granted fal + tg - b |>]> (allocs s)).
Proof.
  intros H. destruct (h_sub_allocate_effect _ _ _ _ _ _ H) as (sb & fal & E). cbv zeta in E.
  destruct E as (Hsb & _ & _ & Hf & Hne & _ & H1 & H2 & _ & ->).
  exists sb, fal. refine (conj Hsb (conj Hf (conj Hne _))). unfold share_state, share_target in *.
  destruct (allocs s !! (id, ta_bytes to)); exact (conj H1 (conj H2 eq_refl)).
Qed.

Lemma alloc_ok_allocate s from id to b s' :
  map_Forall (fun _ al => alloc_ok al) (allocs s) -> h_sub_allocate s from id to b = Ok s' ->
  map_Forall (fun _ al => alloc_ok al) (allocs s').
Proof.
  intros Hall H. destruct (h_sub_allocate_spec _ _ _ _ _ _ H) as (sb & fal & Hsb & Hf & Hne & H1 & H2 & Ea).
  rewrite Ea. pose proof (Hall _ _ Hf) as [F1 F2].
  apply map_Forall_insert_2; [|apply map_Forall_insert_2; [|exact Hall]].
  - destruct (allocs s !! (id, ta_bytes to)) as [tal|] eqn:Ht; unfold alloc_ok; simpl; [pose proof (Hall _ _ Ht) as [G1 G2]|]; lia.
  - unfold alloc_ok. simpl. lia.
Qed.

(* what the settlement hook does to the allocations: only the allocation of the session's own
   (subscription, holder), used grows by at most the reported bytes, granted is untouched *)
Lemma session_inactive_hook_allocs s sid acc nd b s' :
  kinv_sub s -> session_inactive_hook s sid acc nd b = Ok s' ->
  allocs s' = allocs s \/
  exists x al u', sessions s !! sid = Some x /\ allocs s !! (ss_sub x, acc) = Some al /\
    allocs s' = <[(ss_sub x, acc) := al <| al_used := u' |>]> (allocs s) /\
    (u' = al_granted al \/ u' = al_used al + b) /\ (al_used al <= al_granted al -> 0 <= b -> al_used al <= u' <= al_granted al /\ u' <= al_used al + b).
Proof.
  intros Hk H. destruct (session_inactive_hook_subs _ _ _ _ _ _ H) as (x & sb & Hx & Hsb & _ & _ & _ & [E|(al & Hal & E)]); [left; exact E|right].
  destruct (k_sub _ Hk _ _ Hsb) as (Eid & _). destruct (k_al _ Hk _ _ Hal) as (F1 & F2 & _). simpl in F1, F2.
  rewrite F1, F2, Eid in E. rewrite Eid in Hal. exists x, al. eexists. refine (conj Hx (conj Hal (conj E _))). unfold clamp_used.
  destruct (al_granted al - al_used al <? b) eqn:Eb; [apply Z.ltb_lt in Eb|apply Z.ltb_ge in Eb]; split; auto; intros; lia.
Qed.

(** * the invariant is preserved by every operation *)

Lemma payout_step_allocs s e s' : payout_step s e = Ok s' -> allocs s' = allocs s /\ sessions s' = sessions s /\ plan_act s' = plan_act s /\ plan_inact s' = plan_inact s.
Proof.
  intros H. pose proof (payout_step_keeps _ _ _ H) as K.
  destruct (payout_step_subs _ _ _ H) as (po & _ & _ & _ & Ea & _).
  destruct (keeps_sess _ _ _ K eq_refl) as (_ & Es & _). destruct (keeps_plan _ _ _ K eq_refl) as (E1 & E2 & _). auto.
Qed.

Lemma quota_inv_frame s s' :
  allocs s' = allocs s -> sessions s' = sessions s -> plan_act s' = plan_act s -> plan_inact s' = plan_inact s ->
  quota_inv s -> quota_inv s'.
Proof. intros E1 E2 E3 E4 [A B C]. split; unfold get_plan in *; rewrite ?E1, ?E2, ?E3, ?E4; assumption. Qed.

Lemma quota_inv_keeps T s s' :
  keeps T s s' -> touched GSub T = false -> touched GSess T = false -> touched GPl T = false -> quota_inv s -> quota_inv s'.
Proof.
  intros K T1 T2 T3. destruct (keeps_sub _ _ _ K T1) as (_ & _ & _ & _ & _ & _ & Ea & _).
  destruct (keeps_sess _ _ _ K T2) as (_ & Es & _). destruct (keeps_plan _ _ _ K T3) as (Ep & Ei & _). apply quota_inv_frame; assumption.
Qed.

Lemma q_sess_pending_hook s id s' :
  map_Forall (fun _ x => 0 <= ss_up x /\ 0 <= ss_down x) (sessions s) -> sub_pending_hook s id = Ok s' ->
  map_Forall (fun _ x => 0 <= ss_up x /\ 0 <= ss_down x) (sessions s').
Proof. intros Hall H. exact (sub_pending_hook_forall (fun x => 0 <= ss_up x /\ 0 <= ss_down x) _ _ _ H (fun x Hx => Hx) Hall). Qed.

(* the three clauses of the invariant live in three groups of fields; a message that does not touch a group
   keeps its clause by the frame of its handler *)
Lemma quota_handle s m s' : kinv s -> quota_inv s -> validate_basic m = true -> handle s m = Ok s' -> quota_inv s'.
Proof.
  intros Hi [A B C] Hv H. pose proof (handle_frame _ _ _ H) as K. split.
  - destruct (touched GSub (msg_groups m)) eqn:Ht.
    2:{ destruct (keeps_sub _ _ _ K Ht) as (_ & _ & _ & _ & _ & _ & -> & _). exact A. }
    destruct m; try discriminate Ht; simpl in H, Hv.
    + destruct (h_node_subscribe_effect _ _ _ _ _ _ _ H) as (s1 & id & _ & _ & Hc & ->).
      repeat rewrite andb_true_iff in Hv. destruct Hv as [[[_ Hg] _] _]. apply Z.leb_le in Hg.
      exact (alloc_ok_create_node _ _ _ _ _ _ _ _ Hg A Hc).
    + destruct (h_plan_subscribe_effect _ _ _ _ _ H) as (s1 & id0 & Hc & ->).
      exact (alloc_ok_create_plan _ _ _ _ _ _ (B id) A Hc).
    + rewrite (h_sub_cancel_allocs _ _ _ _ H). exact A.
    + eapply alloc_ok_allocate; eauto.
  - destruct (touched GPl (msg_groups m)) eqn:Ht.
    2:{ destruct (keeps_plan _ _ _ K Ht) as (E1 & E2 & _). unfold get_plan. rewrite E1, E2. exact B. }
    destruct m; try discriminate Ht; simpl in H, Hv.
    + repeat rewrite andb_true_iff in Hv. destruct Hv as [[_ Hg] _]. apply Z.ltb_lt in Hg.
      unfold h_plan_create in H. apply rbind_ok in H as (u & _ & H). apply rbind_ok in H as (s1 & Hs & H). injection H as <-.
      unfold set_plan in Hs. simpl in Hs. injection Hs as <-.
      intros id p Hp. unfold get_plan in Hp. simpl in Hp.
      destruct (plan_act s !! id) eqn:E1; [injection Hp as <-; apply (B id); unfold get_plan; rewrite E1; reflexivity|].
      apply lookup_insert_Some in Hp as [[_ <-]|[_ Hp]]; [simpl; lia|]. apply (B id). unfold get_plan. rewrite E1. exact Hp.
    + destruct (evo_h_plan_update_status _ _ _ _ _ (ki_plan _ Hi) H) as (_ & Hback & _).
      intros id0 p' Hp'. destruct (Hback _ _ Hp') as (p & Hp & S). destruct S as (_ & _ & _ & Eg & _). rewrite Eg. eapply B; eauto.
    + unfold h_plan_link in H. res_inv. exact B.
    + unfold h_plan_unlink in H. res_inv. exact B.
  - destruct (touched GSess (msg_groups m)) eqn:Ht.
    2:{ destruct (keeps_sess _ _ _ K Ht) as (_ & -> & _). exact C. }
    destruct m; try discriminate Ht; simpl in H, Hv.
    + destruct (h_sub_cancel_effect _ _ _ _ H) as (sb & s2 & _ & _ & _ & Hh & Hd).
      destruct (sub_demote_fields _ _ _ _ Err _ Hh ltac:(intros ?; discriminate) Hd) as (_ & K2 & _).
      rewrite (proj1 (proj2 (keeps_sess _ _ _ K2 eq_refl))).
      eapply q_sess_pending_hook; [|exact Hh]. exact C.
    + destruct (h_sess_start_effect _ _ _ _ _ H) as (sb & n & latest & _ & _ & _ & _ & _ & _ & _ & _ & ->).
      apply map_Forall_insert_2; [simpl; lia|exact C].
    + repeat rewrite andb_true_iff in Hv. destruct Hv as [[[[[[[[_ _] Hu] _] Hd] _] _] _] _]. apply Z.leb_le in Hu, Hd.
      destruct (h_sess_update_effect _ _ _ _ _ _ _ _ H) as (x & _ & _ & _ & _ & ->).
      apply map_Forall_insert_2; [simpl; lia|exact C].
    + destruct (h_sess_end_effect _ _ _ _ H) as (x & Hx & _ & _ & ->).
      apply map_Forall_insert_2; [exact (C _ _ Hx)|exact C].
Qed.

Lemma q_plans_keeps T s s' :
  keeps T s s' -> touched GPl T = false ->
  (forall id p, get_plan s id = Some p -> 0 <= pl_gb p) -> forall id p, get_plan s' id = Some p -> 0 <= pl_gb p.
Proof. intros K Ht B. destruct (keeps_plan _ _ _ K Ht) as (E1 & E2 & _). unfold get_plan. rewrite E1, E2. exact B. Qed.

Lemma quota_session_expire_one s e s' : kinv s -> quota_inv s -> session_expire_one s e = Ok s' -> quota_inv s'.
Proof.
  intros Hi [A B C] H. pose proof (session_expire_one_keeps _ _ _ H) as Hk.
  pose proof (q_plans_keeps _ _ _ Hk eq_refl B) as Bp.
  destruct (session_expire_one_effect _ _ _ H) as (x & Hx & [(_ & ->)|(_ & _ & s1 & Hh & ->)]); destruct (C _ _ Hx) as [Hu Hd].
  - split; [exact A|exact Bp|]. apply map_Forall_insert_2; [simpl; auto|exact C].
  - destruct (keeps_sess _ _ _ (session_inactive_hook_keeps _ _ _ _ _ _ Hh) eq_refl) as (_ & Es & _).
    split; [|exact Bp|simpl; rewrite Es; apply map_Forall_delete; exact C].
    simpl. apply (session_inactive_hook_allocs) in Hh; [|eapply kinv_sub_frame; [..|apply (ki_sub _ Hi)]; reflexivity].
    destruct Hh as [E|(x0 & al & u' & Hx0 & Hal & E & _ & Hb)]; [rewrite E; exact A|].
    rewrite E. simpl in Hal. pose proof (A _ _ Hal) as [G1 G2].
    destruct (Hb G2 ltac:(lia)) as [[R1 R2] _]. apply map_Forall_insert_2; [unfold alloc_ok; simpl; lia|exact A].
Qed.

Lemma quota_sub_cleanup s sb : map_Forall (fun _ al => alloc_ok al) (allocs s) -> map_Forall (fun _ al => alloc_ok al) (allocs (sub_cleanup s sb)).
Proof.
  intros Hall. unfold sub_cleanup. destruct (sb_kind sb); simpl; [apply map_Forall_delete; exact Hall|].
  apply (fold_left_inv (fun y => map_Forall (fun _ al => alloc_ok al) (allocs y))); [|exact Hall].
  intros y al Hy. simpl. apply map_Forall_delete. exact Hy.
Qed.

Lemma quota_sub_expire_one s e s' : kinv s -> quota_inv s -> sub_expire_one s e = Ok s' -> quota_inv s'.
Proof.
  intros Hi [A B C] H. pose proof (sub_expire_one_keeps _ _ _ H) as Hk.
  pose proof (q_plans_keeps _ _ _ Hk eq_refl B) as Bp.
  destruct (sub_expire_one_effect _ _ _ H) as (sb & _ & [(_ & s1 & Hp & Hd)|(_ & s1 & Hr & Hd)]).
  - destruct (sub_demote_fields _ _ _ _ Panic _ Hp ltac:(intros ?; discriminate) Hd) as (_ & K2 & _ & _ & Ea & _).
    split; [rewrite Ea; exact A|exact Bp|rewrite (proj1 (proj2 (keeps_sess _ _ _ K2 eq_refl)))].
    eapply q_sess_pending_hook; [|exact Hp]. exact C.
  - destruct (keeps_sub _ _ _ (sub_refund_keeps _ _ _ Hr) eq_refl) as (_ & _ & _ & _ & _ & _ & Ea & _).
    assert (A2 : map_Forall (fun _ al => alloc_ok al) (allocs (sub_cleanup s1 sb))) by (apply quota_sub_cleanup; rewrite Ea; exact A).
    destruct (keeps_sess _ _ _ (sub_remove_keeps _ _ _ _ Hr Hd) eq_refl) as (_ & Es & _).
    split; [|exact Bp|rewrite Es; exact C].
    apply sub_delete_payout_effect in Hd. destruct (payout_of _ sb) as [[po|]|]; [|destruct Hd|]; subst s'; exact A2.
Qed.

Theorem quota_step s o s' : kinv s -> quota_inv s -> step s o = OOk s' -> quota_inv s'.
Proof.
  intros Hi Hq Hstep. apply step_inv in Hstep. destruct o.
  - rename Hstep into H. rename s' into x.
    apply begin_block_effect in H as (s1 & Hm & H). apply mint_begin_block_keeps in Hm.
    assert (Hq1 : quota_inv s1) by (apply (quota_inv_keeps _ _ _ Hm eq_refl eq_refl eq_refl); eapply (quota_inv_frame s); [..|exact Hq]; reflexivity).
    unfold sub_begin_block in H. eapply (rfold_inv quota_inv); [|exact Hq1|exact H].
    intros a e b Ha Hs. destruct (payout_step_allocs _ _ _ Hs) as (E1 & E2 & E3 & E4). eapply quota_inv_frame; eauto.
  - destruct Hstep as [Hv H]. rename s' into x.
    eapply quota_handle; [apply kinv_clear; exact Hi| |exact Hv|exact H]. eapply (quota_inv_frame s); [..|exact Hq]; reflexivity.
  - destruct Hstep as [_ ->]. apply (fold_left_inv quota_inv).
    + intros x c Hx. pose proof (apply_pchange_keeps x c). eapply quota_inv_keeps; eauto.
    + eapply (quota_inv_frame s); [..|exact Hq]; reflexivity.
  - destruct Hstep as (se & H & ->).
    apply end_block_effect in H as (s1 & s2 & H1 & H2 & H3).
    assert (Hi0 : kinv (clear_events s)) by (apply kinv_clear; exact Hi).
    pose proof (kinv_node_end_block _ _ Hi0 H1) as Hi1. apply node_end_block_keeps in H1.
    assert (Hq1 : quota_inv s1) by (apply (quota_inv_keeps _ _ _ H1 eq_refl eq_refl eq_refl); eapply (quota_inv_frame s); [..|exact Hq]; reflexivity).
    assert (G2 : kinv s2 /\ quota_inv s2).
    { unfold session_end_block in H2. eapply (rfold_inv (fun y => kinv y /\ quota_inv y)); [|split; eassumption|exact H2].
      intros a e b [Ha Hqa] Hs. split; [eapply kinv_session_expire_one|eapply quota_session_expire_one]; eauto. }
    assert (G3 : kinv se /\ quota_inv se).
    { unfold sub_end_block in H3. eapply (rfold_inv (fun y => kinv y /\ quota_inv y)); [|exact G2|exact H3].
      intros a e b [Ha Hqa] Hs. split; [eapply kinv_sub_expire_one|eapply quota_sub_expire_one]; eauto. }
    eapply (quota_inv_frame se); [..|apply G3]; reflexivity.
Qed.

Lemma quota_inv_init g : quota_inv (init g).
Proof.
  pose proof (init_keeps g) as K. destruct (keeps_sub _ _ _ K eq_refl) as (_ & _ & _ & _ & _ & _ & E1 & _).
  destruct (keeps_sess _ _ _ K eq_refl) as (_ & E2 & _). destruct (keeps_plan _ _ _ K eq_refl) as (E3 & E4 & _).
  split; unfold get_plan; rewrite ?E1, ?E2, ?E3, ?E4; simpl; [apply map_Forall_empty| |apply map_Forall_empty].
  intros id p. rewrite !lookup_empty. discriminate.
Qed.

Theorem quota_run ops : forall s i s', kinv s -> quota_inv s -> run_from s ops i = RunOk s' -> quota_inv s'.
Proof.
  intros s i s' Hi Hq H. refine (proj2 (run_from_inv (fun x => kinv x /\ quota_inv x) ops s i s' _ _ (conj Hi Hq) H)).
  - intros x o x' [Kx Qx] E. split; [eapply kinv_step|eapply quota_step]; eauto.
  - intros x [Kx Qx]. split; [apply kinv_clear; exact Kx|eapply (quota_inv_frame x); [..|exact Qx]; reflexivity].
Qed.

(** * sharing moves quota, it never creates or destroys it *)

Theorem allocate_conserves s from id to b s' :
  kinv_sub s -> h_sub_allocate s from id to b = Ok s' -> forall id0, gsum s' id0 = gsum s id0.
Proof.
  intros Hk H id0. destruct (h_sub_allocate_spec _ _ _ _ _ _ H) as (sb & fal & Hsb & Hf & Hne & H1 & H2 & Ea).
  unfold gsum at 1. rewrite Ea. rewrite !msum_insert. rewrite lookup_insert_ne by congruence. rewrite Hf. fold (gsum s id0).
  destruct (k_al _ Hk _ _ Hf) as (F1 & _). simpl in F1.
  destruct (allocs s !! (id, ta_bytes to)) as [tal|] eqn:Ht.
  - destruct (k_al _ Hk _ _ Ht) as (G1 & _). simpl in G1. unfold granted_of. simpl. rewrite F1, G1. case_bool_decide; lia.
  - unfold granted_of. simpl. rewrite F1. case_bool_decide; lia.
Qed.

(* settlement leaves every grant as it is *)
Theorem settlement_conserves s sid acc nd b s' :
  kinv_sub s -> session_inactive_hook s sid acc nd b = Ok s' -> forall id0, gsum s' id0 = gsum s id0.
Proof.
  intros Hk H id0. destruct (session_inactive_hook_allocs _ _ _ _ _ _ Hk H) as [E|(x & al & u' & Hx & Hal & E & _)]; unfold gsum at 1; rewrite E; [reflexivity|].
  rewrite gsum_insert, Hal. unfold granted_of. simpl. case_bool_decide; lia.
Qed.

Lemma gsum_first_alloc s s' id a al :
  kinv_sub s -> sub_count s < id -> allocs s' = <[(id, a) := al]> (allocs s) -> al_id al = id ->
  gsum s' id = al_granted al /\ forall id0, id0 <> id -> gsum s' id0 = gsum s id0.
Proof.
  intros Hk Hlt Ea Eid.
  assert (Hno : allocs s !! (id, a) = None).
  { destruct (allocs s !! (id, a)) eqn:E; [|reflexivity]. destruct (k_al _ Hk _ _ E) as (_ & _ & ?). simpl in *. lia. }
  unfold gsum at 1 2. rewrite Ea. split; [|intros id0 Hne]; rewrite gsum_insert, Hno; unfold granted_of.
  - rewrite bool_decide_eq_true_2 by exact Eid. rewrite (gsum_fresh s id Hk Hlt). lia.
  - rewrite bool_decide_eq_false_2 by congruence. lia.
Qed.

(* a purchase grants exactly what was bought, to the buyer, and nothing to anyone else *)
Theorem node_purchase_grants s acc nd g h dn s' id :
  kinv_sub s -> create_sub_for_node s acc nd g h dn = Ok (s', id) ->
  gsum s' id = GB * g /\ forall id0, id0 <> id -> gsum s' id0 = gsum s id0.
Proof.
  intros Hk H. destruct (create_sub_for_node_subs _ _ _ _ _ _ _ _ H) as (inact & dep & Eid & _ & _ & Ea & _).
  destruct (g =? 0) eqn:Eg.
  - apply Z.eqb_eq in Eg. subst g. unfold gsum. rewrite Ea. fold (gsum s id).
    rewrite (gsum_fresh s id Hk) by lia. split; [lia|reflexivity].
  - apply (gsum_first_alloc s s' id acc _ Hk ltac:(lia) Ea (eq_sym Eid)).
Qed.

Theorem plan_purchase_grants s acc pid dn s' id :
  kinv_sub s -> create_sub_for_plan s acc pid dn = Ok (s', id) ->
  (exists p, get_plan s pid = Some p /\ gsum s' id = GB * pl_gb p) /\ forall id0, id0 <> id -> gsum s' id0 = gsum s id0.
Proof.
  intros Hk H.
  destruct (create_sub_for_plan_subs _ _ _ _ _ _ H) as (p & Hg & Eid & _ & _ & Ea & _).
  destruct (gsum_first_alloc s s' id acc _ Hk ltac:(lia) Ea (eq_sym Eid)) as [G1 G2]. eauto.
Qed.

(** * usage only grows, and only by the settlement of a session of that holder *)

Theorem settlement_usage s e s' x :
  kinv s -> quota_inv s -> session_expire_one s e = Ok s' -> sessions s !! e.2 = Some x ->
  forall k al al', allocs s !! k = Some al -> allocs s' !! k = Some al' ->
    al_granted al' = al_granted al /\ al_used al <= al_used al' /\
    (al_used al < al_used al' -> k = (ss_sub x, ss_addr x) /\ ss_status x = SPending /\ al_used al' <= al_used al + (ss_up x + ss_down x)).
Proof.
  intros Hi [A B C] H Hx k al al' Hal Hal'. destruct (session_expire_one_effect _ _ _ H) as (x0 & Hx0 & E).
  rewrite Hx in Hx0. injection Hx0 as <-.
  destruct (C _ _ Hx) as [Hu Hd]. destruct (k_ss _ (ki_sess _ Hi) _ _ Hx) as (Eid & _ & Hlive).
  destruct E as [(Hact & ->)|(Hact & _ & s1 & Hh & ->)].
  - simpl in Hal'. rewrite Hal in Hal'. injection Hal' as <-. split; [reflexivity|]. split; lia.
  - simpl in Hal'.
    apply session_inactive_hook_allocs in Hh; [|eapply kinv_sub_frame; [..|apply (ki_sub _ Hi)]; reflexivity].
    destruct Hh as [E|(x0 & al0 & u' & Hx0 & Hal0 & E & _ & Hb)].
    + rewrite E in Hal'. simpl in Hal'. rewrite Hal in Hal'. injection Hal' as <-. split; [reflexivity|]. split; lia.
    + simpl in Hx0. rewrite Eid, Hx in Hx0. injection Hx0 as <-. simpl in Hal0. rewrite E in Hal'. simpl in Hal'.
      apply lookup_insert_Some in Hal' as [[<- <-]|[Hne Hal']].
      * rewrite Hal in Hal0. injection Hal0 as <-. pose proof (A _ _ Hal) as [G1 G2].
        destruct (Hb G2 ltac:(lia)) as [[R1 R2] R3]. simpl. split; [reflexivity|]. split; [exact R1|]. intros _.
        split; [reflexivity|]. split; [destruct Hlive as [?|?]; [contradiction|assumption]|lia].
      * rewrite Hal in Hal'. injection Hal' as <-. split; [reflexivity|]. split; lia.
Qed.

(* stated as the contrapositive of "a holder whose quota is exhausted cannot start a session": whoever started one on
   a subscription with quota (hourly subscriptions have none) had some left *)
Theorem exhausted_cannot_start s from id nd s' sb :
  h_sess_start s from id nd = Ok s' -> subs s !! id = Some sb ->
  (match sb_kind sb with KNode _ _ h _ => h = 0 | KPlan _ _ => True end) ->
  exists al, allocs s !! (id, ta_bytes from) = Some al /\ al_used al < al_granted al.
Proof.
  intros H Hsb Hk. destruct (h_sess_start_effect _ _ _ _ _ H) as (sb0 & n & latest & Hsb0 & _ & _ & _ & _ & _ & _ & [Hh|Hq] & _); [|exact Hq].
  rewrite Hsb in Hsb0. injection Hsb0 as <-. destruct (sb_kind sb); contradiction.
Qed.
