(* C03: the value-range and recipient invariant [range_inv] (RangeDefs.v) is preserved by every
   message handler, every block hook and governance, and holds at genesis. *)
From Hub Require Import Base.Prelude Base.Arith Model.Types Model.Keeper Model.Handlers Model.Hooks Model.Step.
From Hub Require Import Proofs.Tactics Proofs.Sorting Proofs.Frames Proofs.Money Proofs.KeysInv Proofs.ArithThm Proofs.Lifecycle Proofs.Bounds Proofs.Quota
  Proofs.InvDefs Proofs.IndexSub Proofs.IndexSub2 Proofs.Ledger2 Proofs.Link Proofs.RangeDefs Proofs.Effects.

Lemma keeps_sessions T s s' : keeps T s s' -> touched GSess T = false -> sessions s' = sessions s.
Proof. intros Hk Ht. apply (keeps_sess _ _ _ Hk Ht). Qed.
Lemma keeps_inflations T s s' : keeps T s s' -> touched GMint T = false -> inflations s' = inflations s.
Proof. intros Hk Ht. apply (keeps_mint _ _ _ Hk Ht). Qed.

(** * what the node handlers and the node end-blocker do to the two node partitions *)

Definition stored_node (s : state) (n : node) : Prop :=
  (exists a, node_act s !! a = Some n) \/ (exists a, node_inact s !! a = Some n).

Definition node_written (s : state) (n : node) (s' : state) : Prop :=
  forall m, stored_node s' m -> m = n \/ stored_node s m.

Lemma stored_node_get s a n : get_node s a = Some n -> stored_node s n.
Proof. intros H. apply get_node_cases in H as [H|[_ H]]; [left|right]; eauto. Qed.

Lemma stored_node_sub s s' m : node_act s' ⊆ node_act s -> node_inact s' ⊆ node_inact s -> stored_node s' m -> stored_node s m.
Proof. intros A B [[a H]|[a H]]; [left|right]; exists a; eapply lookup_weaken; eauto. Qed.

Lemma stored_node_keeps T s s' m : keeps T s s' -> touched GNode T = false -> stored_node s' m -> stored_node s m.
Proof. intros Hk Ht. destruct (keeps_node _ _ _ Hk Ht) as (A & B & _). unfold stored_node. rewrite A, B. auto. Qed.

Lemma stored_all_nodes s n : kinv_node s -> n ∈ all_nodes s -> stored_node s n.
Proof. intros Hk Hin. destruct (elem_of_all_nodes _ _ Hk Hin) as [[H _]|[H _]]; [left|right]; eauto. Qed.

Lemma set_node_written s n s' : set_node s n = Ok s' -> node_written s n s'.
Proof.
  unfold set_node. intros H m Hm. destruct (nd_status n); try discriminate; injection H as <-; destruct Hm as [[a Hm]|[a Hm]]; simpl in Hm;
    try (apply lookup_insert_Some in Hm as [[_ <-]|[_ Hm]]; [left; reflexivity|]); right; unfold stored_node; eauto.
Qed.

Lemma h_node_register_written s from gb hr url s' :
  h_node_register s from gb hr url = Ok s' -> node_written s (new_node s from gb hr url) s'.
Proof.
  intros H. destruct (h_node_register_effect _ _ _ _ _ _ H) as (s1 & _ & _ & _ & Hf & ->). intros m Hm.
  assert (Hm1 : m = new_node s from gb hr url \/ stored_node s1 m).
  { destruct Hm as [[a Hm]|[a Hm]]; simpl in Hm; [right; left; eauto|].
    apply lookup_insert_Some in Hm as [[_ <-]|[_ Hm]]; [left; reflexivity|right; right; eauto]. }
  destruct Hm1 as [->|Hm1]; [left; reflexivity|right]. exact (stored_node_keeps _ _ _ _ (fund_pool_keeps _ _ _ _ Hf) eq_refl Hm1).
Qed.

Lemma h_node_update_details_written s from gb hr url s' :
  h_node_update_details s from gb hr url = Ok s' ->
  exists n, get_node s (ta_bytes from) = Some n /\
    match gb with Some l => valid_gb_prices s (coins_of l) | None => true end = true /\
    match hr with Some l => valid_hr_prices s (coins_of l) | None => true end = true /\
    node_written s (n <| nd_gb_prices := match gb with Some l => coins_of l | None => nd_gb_prices n end |>
                      <| nd_hr_prices := match hr with Some l => coins_of l | None => nd_hr_prices n end |>
                      <| nd_url := if is_empty url then nd_url n else url |>) s'.
Proof.
  unfold h_node_update_details. intros H. apply rbind_ok in H as (u1 & G1 & H). apply rbind_ok in H as (u2 & G2 & H).
  destruct (get_node s (ta_bytes from)) as [n|]; [|discriminate]. apply rbind_ok in H as (s1 & Hs & H). injection H as <-.
  apply ensure_ok in G1, G2. exists n. repeat (split; [first [reflexivity|assumption]|]). exact (set_node_written _ _ _ Hs).
Qed.

Lemma node_status_state_written s a n st : node_written s (node_with_status s n st) (node_status_state s a n st).
Proof.
  intros m [[k Hm]|[k Hm]]; simpl in Hm; repeat case_bool_decide;
    try (apply lookup_insert_Some in Hm as [[_ <-]|[_ Hm]]; [left; reflexivity|]); try apply lookup_delete_Some in Hm as [_ Hm];
    right; [left|left|left|right|right|right]; eauto.
Qed.

(* the record the price sweep writes for [n] (both price vectors swept, Bounds.v), and the one a lapsed lease leaves *)
Definition swept_node (s : state) (n : node) : node :=
  n <| nd_gb_prices := swept (m_max_gb (modified s)) (m_min_gb (modified s)) (nd_gb_prices n) (p_max_gb (pars s)) (p_min_gb (pars s)) |>
    <| nd_hr_prices := swept (m_max_hr (modified s)) (m_min_hr (modified s)) (nd_hr_prices n) (p_max_hr (pars s)) (p_min_hr (pars s)) |>.
Definition expired (t : time) (n : node) : node :=
  n <| nd_inactive_at := tzero |> <| nd_status := SInactive |> <| nd_status_at := t |>.

Lemma node_sweep_one_effect s n s' : node_sweep_one s n = Ok s' -> node_written s (swept_node s n) s'.
Proof.
  unfold node_sweep_one. intros H. apply rbind_ok in H as (s1 & Hs & H). injection H as <-.
  apply must_ok in Hs. exact (set_node_written _ _ _ Hs).
Qed.

Lemma node_expire_one_written s e s' :
  node_expire_one s e = Ok s' -> exists n, get_node s e.2 = Some n /\ node_written s (expired (now s) n) s'.
Proof.
  unfold node_expire_one. intros H. destruct (get_node s e.2) as [n|]; [|discriminate]. exists n. split; [reflexivity|].
  apply rbind_ok in H as (s2 & Hs & H). injection H as <-. apply must_ok in Hs.
  intros m Hm. destruct (set_node_written _ _ _ Hs m Hm) as [->|Hm1]; [left; reflexivity|right].
  eapply stored_node_sub; [| |exact Hm1]; simpl; [apply delete_subseteq|reflexivity].
Qed.

Lemma node_end_block_nodes (P : node -> Prop) s s' :
  kinv_node s -> node_end_block s = Ok s' ->
  (forall n, P n -> P (swept_node s n)) -> (forall n, P n -> P (expired (now s) n)) ->
  (forall n, stored_node s n -> P n) -> forall n, stored_node s' n -> P n.
Proof.
  intros Hk H Hsw Hex Hs. unfold node_end_block in H. apply rbind_ok in H as (s1 & H1 & H).
  set (Q := fun x : state => (forall n, stored_node x n -> P n) /\ now x = now s /\ pars x = pars s /\ modified x = modified s).
  assert (Q0 : Q s) by (split; [exact Hs|repeat split; reflexivity]).
  assert (Q1 : Q s1).
  { destruct (_ || _); [|injection H1 as <-; exact Q0].
    eapply (rfold_inv_in Q); [|exact Q0|exact H1].
    intros x n x' Hin (Hx & En & Ep & Em) Hstep.
    pose proof (node_sweep_one_keeps _ _ _ Hstep) as K. destruct (keeps_par _ _ _ K eq_refl) as [Fp Fm]. pose proof (keeps_now _ _ _ K eq_refl) as Fn.
    split; [|rewrite Fn, Fp, Fm; auto].
    intros m Hm. destruct (node_sweep_one_effect _ _ _ Hstep m Hm) as [->|Hm0]; [|exact (Hx _ Hm0)].
    replace (swept_node x n) with (swept_node s n) by (unfold swept_node; rewrite Ep, Em; reflexivity).
    apply Hsw, Hs, stored_all_nodes; assumption. }
  eapply (rfold_inv Q) in H; [exact (proj1 H)| |exact Q1].
  intros x e x' (Hx & En & Ep & Em) Hstep.
  pose proof (node_expire_one_keeps _ _ _ Hstep) as K. destruct (keeps_par _ _ _ K eq_refl) as [Fp Fm]. pose proof (keeps_now _ _ _ K eq_refl) as Fn.
  split; [|rewrite Fn, Fp, Fm; auto].
  destruct (node_expire_one_written _ _ _ Hstep) as (n0 & Hg & Hw).
  intros m Hm. destruct (Hw m Hm) as [->|Hm0]; [|exact (Hx _ Hm0)].
  rewrite En. apply Hex, Hx. exact (stored_node_get _ _ _ Hg).
Qed.

(** * the invariant, component by component *)

Definition sub_rng (c : config) (sb : subscription) : Prop :=
  sb_addr sb ∉ c_blocked c /\
  match sb_kind sb with KNode nd g h dep => dep.2 < BIG /\ nd ∉ c_blocked c | KPlan _ _ => True end.
Definition alloc_rng (al : allocation) : Prop := 0 <= al_granted al < MAXINT.
Definition sess_rng (c : config) (x : session) : Prop :=
  0 <= ss_up x /\ 0 <= ss_down x /\ ss_up x + ss_down x < MAXINT /\ ss_node x ∉ c_blocked c.
Definition node_rng (c : config) (n : node) : Prop := nd_addr n ∉ c_blocked c.
Definition inf_rng (it : inflation) : Prop := mint_params_valid (inf_max it) (inf_min it) (inf_rate it) = true.

Definition nodes_ok (c : config) (s : state) : Prop := forall n, stored_node s n -> node_rng c n.

Lemma range_intro s :
  map_Forall (fun _ => sub_rng (cfg s)) (subs s) -> map_Forall (fun _ => alloc_rng) (allocs s) ->
  map_Forall (fun _ => sess_rng (cfg s)) (sessions s) -> nodes_ok (cfg s) s ->
  map_Forall (fun _ => inf_rng) (inflations s) -> range_inv s.
Proof. intros A B C D F. split; try assumption; intros a n H; apply D; [left|right]; eauto. Qed.

Lemma range_elim s :
  range_inv s ->
  map_Forall (fun _ => sub_rng (cfg s)) (subs s) /\ map_Forall (fun _ => alloc_rng) (allocs s) /\
  map_Forall (fun _ => sess_rng (cfg s)) (sessions s) /\ nodes_ok (cfg s) s /\
  map_Forall (fun _ => inf_rng) (inflations s).
Proof.
  intros [A B C D E F]. split; [exact A|]. split; [exact B|]. split; [exact C|]. split; [|exact F].
  intros n [[a H]|[a H]]; [exact (D _ _ H)|exact (E _ _ H)].
Qed.

Lemma range_inv_keeps T s s' :
  keeps T s s' -> range_inv s ->
  (touched GSub T = true -> map_Forall (fun _ => sub_rng (cfg s)) (subs s') /\ map_Forall (fun _ => alloc_rng) (allocs s')) ->
  (touched GSess T = true -> map_Forall (fun _ => sess_rng (cfg s)) (sessions s')) ->
  (touched GNode T = true -> nodes_ok (cfg s) s') ->
  (touched GMint T = true -> map_Forall (fun _ => inf_rng) (inflations s')) -> range_inv s'.
Proof.
  intros Hk Hr HS HX HN HM.
  destruct (range_elim _ Hr) as (A & B & C & D & F). apply range_intro; rewrite ?(keeps_cfg _ _ _ Hk).
  - destruct (touched GSub T) eqn:E; [exact (proj1 (HS eq_refl))|]. destruct (keeps_sub _ _ _ Hk E) as (_ & -> & _). exact A.
  - destruct (touched GSub T) eqn:E; [exact (proj2 (HS eq_refl))|].
    destruct (keeps_sub _ _ _ Hk E) as (_ & _ & _ & _ & _ & _ & -> & _). exact B.
  - destruct (touched GSess T) eqn:E; [exact (HX eq_refl)|]. rewrite (keeps_sessions _ _ _ Hk E). exact C.
  - destruct (touched GNode T) eqn:E; [exact (HN eq_refl)|]. intros n Hn. exact (D _ (stored_node_keeps _ _ _ _ Hk E Hn)).
  - destruct (touched GMint T) eqn:E; [exact (HM eq_refl)|]. rewrite (keeps_inflations _ _ _ Hk E). exact F.
Qed.

Lemma range_frame s s' :
  cfg s' = cfg s -> subs s' = subs s -> allocs s' = allocs s -> sessions s' = sessions s ->
  node_act s' = node_act s -> node_inact s' = node_inact s -> inflations s' = inflations s ->
  range_inv s -> range_inv s'.
Proof.
  intros E0 E1 E2 E3 E4 E5 E6 Hr. destruct (range_elim _ Hr) as (A & B & C & D & F).
  apply range_intro; unfold nodes_ok, stored_node; rewrite ?E0, ?E1, ?E2, ?E3, ?E4, ?E5, ?E6; auto.
Qed.

Lemma MAXINT_pos : 0 < MAXINT.
Proof. reflexivity. Qed.
Lemma BIG_pos : 0 < BIG.
Proof. reflexivity. Qed.

(** * nodes *)

Lemma range_node_end_block s s' : kinv s -> range_inv s -> node_end_block s = Ok s' -> range_inv s'.
Proof.
  intros Hi Hr H. apply (range_inv_keeps _ _ _ (node_end_block_keeps _ _ H) Hr); try discriminate. intros _.
  destruct (range_elim _ Hr) as (_ & _ & _ & Hn & _).
  exact (node_end_block_nodes (node_rng (cfg s)) s s' (ki_node _ Hi) H (fun n Hx => Hx) (fun n Hx => Hx) Hn).
Qed.

(** * purchases *)

Lemma z_dep_add_le s a c s' : z_dep_add s a c = Ok s' -> c.2 = 0 \/ c.2 <= bal s a c.1.
Proof.
  unfold z_dep_add. destruct (Z.eqb_spec c.2 0) as [E|E]; [left; exact E|]. intros H. right.
  unfold dep_add in H. apply rbind_ok in H as (s1 & Hs & _). unfold bank_send in Hs.
  destruct (Z.ltb_spec c.2 0); [discriminate|]. destruct (Z.eqb_spec c.2 0); [lia|].
  destruct (Z.ltb_spec (bal s a c.1) c.2); [discriminate|]. lia.
Qed.

Lemma fits_rng z : fits z = true -> 0 <= z -> 0 <= z < MAXINT.
Proof. unfold fits. intros H%Z.ltb_lt Hz. lia. Qed.

Lemma create_sub_for_node_rng s acc nd g h dn s' id :
  kinv_node s -> range_inv s -> 0 <= g -> acc ∉ c_blocked (cfg s) -> (forall d, bal s acc d < BIG) ->
  create_sub_for_node s acc nd g h dn = Ok (s', id) ->
  map_Forall (fun _ => sub_rng (cfg s)) (subs s') /\ map_Forall (fun _ => alloc_rng) (allocs s').
Proof.
  intros Hkn Hr Hg Hacc Hbal H. destruct (range_elim _ Hr) as (A & B & _ & Hn & _).
  destruct (create_sub_for_node_effect _ _ _ _ _ _ _ _ H) as (n & inact & dep & s1 & Hgn & _ & (Qg & _) & Hz & _ & ->).
  destruct (keeps_sub _ _ _ (z_dep_add_keeps _ _ _ _ Hz) eq_refl) as (_ & Es1 & _ & _ & _ & _ & Ea1 & _).
  simpl. rewrite Es1, Ea1. split.
  - apply map_Forall_insert_2; [|exact A]. split; [exact Hacc|]. simpl. split.
    + destruct (z_dep_add_le _ _ _ _ Hz) as [E|E]; [rewrite E; apply BIG_pos|specialize (Hbal dep.1); lia].
    + destruct (get_node_kinv _ _ _ Hkn Hgn) as [<- _]. exact (Hn _ (stored_node_get _ _ _ Hgn)).
  - destruct (Z.eqb_spec g 0) as [E|E]; [exact B|]. apply map_Forall_insert_2; [|exact B].
    destruct (Qg E) as (price & a & _ & Hf & _). apply (fits_rng _ Hf). pose proof GB_pos. lia.
Qed.

Lemma create_sub_for_plan_rng s acc pid dn s' id :
  quota_inv s -> range_inv s -> acc ∉ c_blocked (cfg s) -> create_sub_for_plan s acc pid dn = Ok (s', id) ->
  map_Forall (fun _ => sub_rng (cfg s)) (subs s') /\ map_Forall (fun _ => alloc_rng) (allocs s').
Proof.
  intros Hq Hr Hacc H. destruct (range_elim _ Hr) as (A & B & _).
  destruct (create_sub_for_plan_effect _ _ _ _ _ _ H) as (p & price & fee & s1 & s2 & Hp & _ & _ & _ & _ & Hf & H1 & H2 & _ & _ & ->).
  destruct (keeps_sub _ _ _ (keeps_trans _ _ _ _ (z_send_keeps _ _ _ _ _ H1) (z_send_keeps _ _ _ _ _ H2)) eq_refl) as (_ & Es & _ & _ & _ & _ & Ea & _).
  simpl. rewrite Es, Ea. split; (apply map_Forall_insert_2; [|assumption]).
  - split; [exact Hacc|exact I].
  - apply (fits_rng _ Hf). pose proof GB_pos. pose proof (q_plans _ Hq _ _ Hp). simpl. lia.
Qed.

(** * cancelling and sharing *)

(* the tail shared by MsgCancel and the expiry of an active subscription; [s0] is the state without the queue entry *)
Lemma demote_tail_rng c s0 id s1 sb m s' :
  sub_pending_hook s0 id = Ok s1 -> (forall x, m <> Ok x) -> detach_payout (sub_make_pending s1 sb) sb m = Ok s' ->
  map_Forall (fun _ => sub_rng c) (subs s0) -> map_Forall (fun _ => alloc_rng) (allocs s0) ->
  map_Forall (fun _ => sess_rng c) (sessions s0) -> sub_rng c sb ->
  (map_Forall (fun _ => sub_rng c) (subs s') /\ map_Forall (fun _ => alloc_rng) (allocs s')) /\
  map_Forall (fun _ => sess_rng c) (sessions s').
Proof.
  intros Hp Hm H A B C Hsb.
  destruct (keeps_sub _ _ _ (sub_pending_hook_keeps _ _ _ Hp) eq_refl) as (_ & Es1 & _ & _ & _ & _ & Ea1 & _).
  destruct (detach_payout_fields _ _ _ _ Hm H) as (D1 & D2 & D3 & _).
  rewrite D1, D2, D3. unfold sub_make_pending. simpl. rewrite Es1, Ea1. split; [split; [|exact B]|].
  - apply map_Forall_insert_2; [exact Hsb|exact A].
  - exact (sub_pending_hook_forall (sess_rng c) _ _ _ Hp (fun x Hx => Hx) C).
Qed.

Lemma alloc_rng_allocate s from id to b s' :
  0 <= b < MAXINT -> map_Forall (fun _ al => alloc_ok al) (allocs s) -> map_Forall (fun _ => alloc_rng) (allocs s) ->
  h_sub_allocate s from id to b = Ok s' -> map_Forall (fun _ => alloc_rng) (allocs s').
Proof.
  intros Hb Hok Hall H. destruct (h_sub_allocate_effect _ _ _ _ _ _ H) as (sb & fal & E). cbv zeta in E.
  destruct E as (_ & _ & _ & Hfal & _ & _ & Hfu & _ & Hfit & ->). destruct (Hok _ _ Hfal) as [F1 F2].
  (* the receiving allocation, stored or fresh, has a non-negative grant; the checked sum bounds the sender's new grant *)
  assert (G : 0 <= al_granted (share_target s id (ta_bytes to))).
  { unfold share_target. destruct (allocs s !! (id, ta_bytes to)) as [t|] eqn:Ht; simpl; [apply (Hall _ _ Ht)|lia]. }
  unfold fits in Hfit. apply Z.ltb_lt in Hfit. unfold share_state. simpl.
  apply map_Forall_insert_2; [unfold alloc_rng; simpl; lia|]. apply map_Forall_insert_2; [unfold alloc_rng; simpl; lia|exact Hall].
Qed.

(** * all message handlers *)

Lemma range_handle s m s' :
  kinv s -> quota_inv s -> range_inv s -> validate_basic m = true ->
  ta_bytes (msg_from m) ∉ c_blocked (cfg s) -> (forall d, bal s (ta_bytes (msg_from m)) d < BIG) ->
  handle s m = Ok s' -> range_inv s'.
Proof.
  intros Hi Hq Hr Hv Hnb Hbal H. pose proof (handle_frame _ _ _ H) as Hk. destruct (range_elim _ Hr) as (A & B & C & Hn & _).
  destruct m; simpl in H, Hv, Hnb, Hbal; (apply (range_inv_keeps _ _ _ Hk Hr); try discriminate; intros _).
  - (* node register, update details, update status: the record written carries an unblocked address *)
    intros n Hx. destruct (h_node_register_written _ _ _ _ _ _ H n Hx) as [->|Hx0]; [exact Hnb|exact (Hn _ Hx0)].
  - destruct (h_node_update_details_written _ _ _ _ _ _ H) as (n0 & Hg & _ & _ & Hw).
    intros n Hx. destruct (Hw n Hx) as [->|Hx0]; [exact (Hn _ (stored_node_get _ _ _ Hg))|exact (Hn _ Hx0)].
  - destruct (h_node_update_status_effect _ _ _ _ H) as (n0 & Hg & _ & ->).
    intros n Hx. destruct (node_status_state_written _ _ _ _ n Hx) as [->|Hx0]; [exact (Hn _ (stored_node_get _ _ _ Hg))|exact (Hn _ Hx0)].
  - (* node subscribe: the escrowed deposit is below the sender's balance, the grant is a checked product *)
    destruct (h_node_subscribe_effect _ _ _ _ _ _ _ H) as (s1 & i & _ & _ & Hc & ->).
    destruct (vb_node_subscribe _ _ _ _ _ Hv) as (_ & _ & _ & _ & Hg & _).
    exact (create_sub_for_node_rng _ _ _ _ _ _ _ _ (ki_node _ Hi) Hr Hg Hnb Hbal Hc).
  - destruct (h_plan_subscribe_effect _ _ _ _ _ H) as (s1 & i & Hc & ->).
    exact (create_sub_for_plan_rng _ _ _ _ _ _ Hq Hr Hnb Hc).
  - destruct (h_sub_cancel_effect _ _ _ _ H) as (sb & s1 & Hsb & _ & _ & Hp & Hd).
    exact (proj1 (demote_tail_rng (cfg s) _ _ _ _ Err _ Hp ltac:(discriminate) Hd A B C (A _ _ Hsb))).
  - destruct (h_sub_cancel_effect _ _ _ _ H) as (sb & s1 & Hsb & _ & _ & Hp & Hd).
    exact (proj2 (demote_tail_rng (cfg s) _ _ _ _ Err _ Hp ltac:(discriminate) Hd A B C (A _ _ Hsb))).
  - destruct (vb_sub_allocate _ _ _ _ Hv) as (_ & _ & _ & Hb).
    split; [rewrite (proj1 (h_sub_allocate_fields _ _ _ _ _ _ H)); exact A|].
    exact (alloc_rng_allocate _ _ _ _ _ _ Hb (q_alloc _ Hq) B H).
  - (* session start: the node of the new session is a stored node *)
    destruct (h_sess_start_effect _ _ _ _ _ H) as (sb & n & l & _ & _ & Hgn & _ & _ & _ & _ & _ & ->).
    simpl. apply map_Forall_insert_2; [|exact C]. pose proof MAXINT_pos. repeat split; simpl; try lia.
    destruct (get_node_kinv _ _ _ (ki_node _ Hi) Hgn) as [<- _]. exact (Hn _ (stored_node_get _ _ _ Hgn)).
  - destruct (vb_sess_update _ _ _ _ _ _ sig_ok Hv) as (_ & _ & [Hu _] & [Hd _] & Hs & _).
    destruct (h_sess_update_effect _ _ _ _ _ _ _ _ H) as (x & Hx & _ & _ & _ & ->).
    destruct (C _ _ Hx) as (_ & _ & _ & Hnode). simpl. apply map_Forall_insert_2; [|exact C]. repeat split; assumption.
  - destruct (h_sess_end_effect _ _ _ _ H) as (x & Hx & _ & _ & ->). simpl. apply map_Forall_insert_2; [exact (C _ _ Hx)|exact C].
Qed.

(** * block hooks *)

Lemma range_payout_step s e s' : range_inv s -> payout_step s e = Ok s' -> range_inv s'.
Proof.
  intros Hr H. apply (range_inv_keeps _ _ _ (payout_step_keeps _ _ _ H) Hr); try discriminate. intros _.
  destruct (range_elim _ Hr) as (A & B & _).
  destruct (payout_step_effect _ _ _ H) as (po & fee & s2 & s3 & _ & _ & _ & H2 & H3 & ->).
  destruct (keeps_sub _ _ _ (keeps_trans _ _ _ _ (z_dep_to_module_keeps _ _ _ _ _ H2) (z_dep_to_account_keeps _ _ _ _ _ H3)) eq_refl)
    as (_ & Es & _ & _ & _ & _ & Ea & _).
  simpl. rewrite Es, Ea. split; assumption.
Qed.

Lemma range_session_expire_one s e s' : kinv s -> range_inv s -> session_expire_one s e = Ok s' -> range_inv s'.
Proof.
  intros Hi Hr H. destruct (range_elim _ Hr) as (A & B & C & _ & _).
  apply (range_inv_keeps _ _ _ (session_expire_one_keeps _ _ _ H) Hr); try discriminate; intros _;
    destruct (session_expire_one_effect _ _ _ H) as (x & Hx & [(_ & ->)|(_ & _ & s1 & Hh & ->)]); simpl.
  - split; assumption.
  - destruct (session_inactive_hook_subfields _ _ _ _ _ _ Hh) as (-> & _). split; [exact A|].
    apply session_inactive_hook_allocs in Hh; [|eapply kinv_sub_frame; [..|apply (ki_sub _ Hi)]; reflexivity].
    destruct Hh as [->|(x0 & al & u' & _ & Hal & -> & _)]; [exact B|]. apply map_Forall_insert_2; [exact (B _ _ Hal)|exact B].
  - apply map_Forall_insert_2; [exact (C _ _ Hx)|exact C].
  - rewrite (keeps_sessions _ _ _ (session_inactive_hook_keeps _ _ _ _ _ _ Hh) eq_refl). apply map_Forall_delete. exact C.
Qed.

Lemma alloc_rng_cleanup s sb : map_Forall (fun _ => alloc_rng) (allocs s) -> map_Forall (fun _ => alloc_rng) (allocs (sub_cleanup s sb)).
Proof.
  intros Hall. unfold sub_cleanup. destruct (sb_kind sb); simpl; [apply map_Forall_delete; exact Hall|].
  apply (fold_left_inv (fun y => map_Forall (fun _ => alloc_rng) (allocs y))); [|exact Hall].
  intros y al Hy. simpl. apply map_Forall_delete. exact Hy.
Qed.

Lemma sub_delete_payout_subs s sb s' : sub_delete_payout s sb = Ok s' -> subs s' = subs s /\ allocs s' = allocs s.
Proof.
  intros H. apply sub_delete_payout_effect in H. destruct (payout_of s sb) as [[po|]|]; [| |subst; auto]; [subst; auto|destruct H].
Qed.

Lemma range_sub_expire_one s e s' : range_inv s -> sub_expire_one s e = Ok s' -> range_inv s'.
Proof.
  intros Hr H. pose proof (sub_expire_one_keeps _ _ _ H) as Hk. destruct (range_elim _ Hr) as (A & B & C & _ & _).
  assert (G : (map_Forall (fun _ => sub_rng (cfg s)) (subs s') /\ map_Forall (fun _ => alloc_rng) (allocs s')) /\
              map_Forall (fun _ => sess_rng (cfg s)) (sessions s')).
  { destruct (sub_expire_one_effect _ _ _ H) as (sb & Hsb & [(_ & s1 & Hp & Hd)|(_ & s1 & Hrf & Hd)]).
    - exact (demote_tail_rng (cfg s) _ _ _ _ Panic _ Hp ltac:(discriminate) Hd A B C (A _ _ Hsb)).
    - destruct (sub_refund_subfields _ _ _ Hrf) as (_ & R1 & _ & _ & _ & _ & R2 & _).
      rewrite (keeps_sessions _ _ _ (sub_delete_payout_keeps _ _ _ Hd) eq_refl).
      destruct (sub_delete_payout_subs _ _ _ Hd) as [-> ->]. simpl.
      rewrite (proj1 (sub_cleanup_fields s1 sb)), R1, (keeps_sessions _ _ _ (sub_cleanup_keeps s1 sb) eq_refl),
        (keeps_sessions _ _ _ (sub_refund_keeps _ _ _ Hrf) eq_refl).
      split; [split; [apply map_Forall_delete; exact A|]|exact C]. apply alloc_rng_cleanup. rewrite R2. exact B. }
  destruct G as [G1 G2]. apply (range_inv_keeps _ _ _ Hk Hr); try discriminate; intros _; assumption.
Qed.

Lemma mint_loop_inflations l : forall s s', mint_loop l s = Ok s' -> inflations s' ⊆ inflations s.
Proof.
  induction l as [|it l IH]; intros s s' H; simpl in H; [injection H as <-; reflexivity|].
  destruct (now s <? inf_ts it); [injection H as <-; reflexivity|]. apply rbind_ok in H as (u & _ & H).
  etransitivity; [exact (IH _ _ H)|]. simpl. apply delete_subseteq.
Qed.

Lemma range_mint_begin_block s s' : range_inv s -> mint_begin_block s = Ok s' -> range_inv s'.
Proof.
  intros Hr H. apply (range_inv_keeps _ _ _ (mint_begin_block_keeps _ _ H) Hr); try discriminate. intros _.
  destruct (range_elim _ Hr) as (_ & _ & _ & _ & F).
  intros t it Hl. exact (F _ _ (lookup_weaken _ _ _ _ Hl (mint_loop_inflations _ _ _ H))).
Qed.

Lemma range_clear s : range_inv s -> range_inv (clear_events s).
Proof. apply range_frame; reflexivity. Qed.

(** * genesis *)

Lemma range_init g :
  (forall it, it ∈ g_inflations g -> mint_params_valid (inf_max it) (inf_min it) (inf_rate it) = true) -> range_inv (init g).
Proof.
  intros Hinf. pose proof (init_keeps g) as K.
  destruct (keeps_sub _ _ _ K eq_refl) as (_ & E1 & _ & _ & _ & _ & E2 & _).
  apply range_intro; rewrite ?E1, ?E2, ?(keeps_sessions _ _ _ K eq_refl), ?init_inflations; try apply map_Forall_empty.
  - intros n Hn. apply (stored_node_keeps _ _ _ _ K eq_refl) in Hn as [[a H]|[a H]]; simpl in H; rewrite lookup_empty in H; discriminate.
  - intros t it Hl. apply elem_of_list_to_map_2 in Hl. apply elem_of_list_fmap in Hl as (it' & [= -> ->] & Hin). apply Hinf. exact Hin.
Qed.
