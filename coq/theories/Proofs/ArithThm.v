(* Theorems about the arithmetic model (property C16, and lemmas used by C02/C05). *)
From Hub Require Import Base.Prelude Base.Arith.
From Coq Require Import ZifyBool.

Local Open Scope Z_scope.

Definition cdiv (a b : Z) : Z := (a + b - 1) / b.     (* ceiling division for b > 0 *)

Lemma GB_pos : 0 < GB. Proof. reflexivity. Qed.
Lemma P18_pos : 0 < P18. Proof. reflexivity. Qed.
Lemma P18_GB : P18 = GB * GB. Proof. reflexivity. Qed.
(* both sides are normalised first: left to itself the kernel compares [10 ^ 18]
   with [2 * (5 * 10 ^ 17)] by unfolding in a costly order *)
Lemma HALF18_P18 : P18 = 2 * HALF18. Proof. lazy. reflexivity. Qed.
Lemma MAXDEC1_lt : MAXDEC1 < MAXDEC. Proof. reflexivity. Qed.

Global Opaque GB P18 HALF18 MAXINT MAXDEC MAXDEC1.

Lemma cdiv_spec a b : 0 < b -> let q := cdiv a b in b * (q - 1) < a <= b * q.
Proof.
  intros Hb q. unfold q, cdiv.
  pose proof (Z.div_mod (a + b - 1) b ltac:(lia)).
  pose proof (Z.mod_pos_bound (a + b - 1) b Hb). nia.
Qed.

Lemma cdiv_unique a b q : 0 < b -> b * (q - 1) < a <= b * q -> cdiv a b = q.
Proof.
  intros Hb H. pose proof (cdiv_spec a b Hb) as H'. cbv zeta in H'. nia.
Qed.

Lemma cdiv_0 b : 0 < b -> cdiv 0 b = 0.
Proof. intros; apply cdiv_unique; lia. Qed.

Lemma cdiv_nonneg a b : 0 < b -> 0 <= a -> 0 <= cdiv a b.
Proof. intros Hb Ha. pose proof (cdiv_spec a b Hb) as H; cbv zeta in H. nia. Qed.

Lemma cdiv_mono a a' b : 0 < b -> a <= a' -> cdiv a b <= cdiv a' b.
Proof.
  intros Hb H. pose proof (cdiv_spec a b Hb) as H1; pose proof (cdiv_spec a' b Hb) as H2.
  cbv zeta in *. nia.
Qed.

Lemma cdiv_subadd a a' b : 0 < b -> cdiv (a + a') b <= cdiv a b + cdiv a' b.
Proof.
  intros Hb. pose proof (cdiv_spec a b Hb) as H1; pose proof (cdiv_spec a' b Hb) as H2.
  pose proof (cdiv_spec (a + a') b Hb) as H3. cbv zeta in *. nia.
Qed.

Lemma cdiv_superadd a a' b : 0 < b -> cdiv a b + cdiv a' b <= cdiv (a + a') b + 1.
Proof.
  intros Hb. pose proof (cdiv_spec a b Hb) as H1; pose proof (cdiv_spec a' b Hb) as H2.
  pose proof (cdiv_spec (a + a') b Hb) as H3. cbv zeta in *. nia.
Qed.

Lemma cdiv_exact k b : 0 < b -> cdiv (b * k) b = k.
Proof. intros; apply cdiv_unique; nia. Qed.

Lemma cdiv_le_self a b : 0 < b -> 0 <= a -> cdiv a b <= a.
Proof.
  intros Hb Ha. pose proof (cdiv_spec a b Hb) as H; cbv zeta in H. nia.
Qed.

(** ** chop_round on non-negative input *)

Lemma chop_round_pos_bounds d : 0 <= d ->
  let r := chop_round_pos d in
  0 <= r /\ - HALF18 <= r * P18 - d <= HALF18.
Proof.
  intros Hd r. subst r. unfold chop_round_pos.
  pose proof P18_pos. pose proof HALF18_P18.
  pose proof (Z.div_mod d P18 ltac:(lia)).
  pose proof (Z.mod_pos_bound d P18 ltac:(lia)).
  assert (0 <= d / P18) by (apply Z.div_pos; lia).
  repeat match goal with |- context [if ?b then _ else _] => destruct b eqn:? end; lia.
Qed.

Lemma chop_round_exact k : 0 <= k -> chop_round (k * P18) = k.
Proof.
  intros Hk. unfold chop_round. pose proof P18_pos.
  destruct (k * P18 <? 0) eqn:E; [nia|].
  unfold chop_round_pos. rewrite Z.mod_mul by lia. rewrite Z.div_mul by lia. reflexivity.
Qed.

Lemma chop_round_nonneg d : 0 <= d -> chop_round d = chop_round_pos d.
Proof. intros. unfold chop_round. destruct (d <? 0) eqn:E; [lia|reflexivity]. Qed.

(** ** AmountForBytes *)

Lemma cdiv_mul_r a b c : 0 < b -> 0 < c -> cdiv (a * c) (b * c) = cdiv a b.
Proof.
  intros Hb Hc. apply cdiv_unique; [nia|].
  pose proof (cdiv_spec a b Hb) as H. cbv zeta in H. nia.
Qed.

Lemma dec_ceil_truncate d : 0 <= d < MAXDEC1 ->
  (let! c := dec_ceil d in dec_truncate_int c) = Ok (cdiv d P18).
Proof.
  intros Hd. pose proof P18_pos.
  unfold dec_ceil. rewrite Z.quot_div_nonneg, Z.rem_mod_nonneg by lia.
  pose proof (Z.div_mod d P18 ltac:(lia)) as Hdm.
  pose proof (Z.mod_pos_bound d P18 ltac:(lia)) as Hmb.
  assert (0 <= d / P18) by (apply Z.div_pos; lia).
  assert (Hfit : forall k, 0 <= k <= d / P18 + 1 -> fits k = true).
  { intros k Hk. unfold fits.
    assert (d / P18 <= MAXDEC1 / P18) by (apply Z.div_le_mono; lia).
    assert (MAXDEC1 / P18 + 2 < MAXINT) by (vm_compute; reflexivity).
    lia. }
  assert (Hq : forall k, Z.quot (k * P18) P18 = k) by (intros k; apply Z.quot_mul; lia).
  destruct (d mod P18 <=? 0) eqn:Er; [|destruct (Z.abs d <? MAXDEC1) eqn:E2; [|lia]];
    cbn [rbind]; unfold dec_truncate_int, chk; rewrite Hq, Hfit by lia;
    f_equal; symmetry; apply cdiv_unique; lia.
Qed.

(* A sufficient domain on which AmountForBytes does not panic and is the ceiling:
   the 18-decimal product stays below 314 bits (so neither Mul nor Ceil trips). *)
Theorem afb_exact_gen p b :
  0 <= p -> 0 <= b -> p * b * GB < MAXDEC1 ->
  amount_for_bytes p b = Ok (cdiv (p * b) GB).
Proof.
  intros Hp Hb Hlim.
  pose proof GB_pos. pose proof P18_pos. pose proof P18_GB as HP. pose proof MAXDEC1_lt.
  unfold amount_for_bytes, dec_quo_int, dec_of_int, dec_mul.
  replace (Z.quot (p * P18) GB) with (p * GB)
    by (rewrite HP, Z.mul_assoc; symmetry; apply Z.quot_mul; lia).
  replace (b * P18 * (p * GB)) with ((p * b * GB) * P18) by ring.
  assert (0 <= p * b * GB) by nia.
  rewrite chop_round_exact by lia.
  destruct (Z.abs (p * b * GB) <? MAXDEC) eqn:E; [|lia]. cbn [rbind].
  rewrite dec_ceil_truncate by lia. rewrite HP, cdiv_mul_r by lia. reflexivity.
Qed.

Lemma pow128_prod_bound p b : 0 <= p <= 2 ^ 128 -> 0 <= b <= 2 ^ 128 -> p * b * GB < MAXDEC1.
Proof.
  intros Hp Hb.
  assert (p * b <= 2 ^ 128 * 2 ^ 128) by nia.
  assert (2 ^ 128 * 2 ^ 128 * GB < MAXDEC1) by (vm_compute; reflexivity).
  pose proof GB_pos. nia.
Qed.

Theorem afb_exact p b :
  0 <= p <= 2 ^ 128 -> 0 <= b <= 2 ^ 128 ->
  amount_for_bytes p b = Ok (cdiv (p * b) GB).
Proof. intros; apply afb_exact_gen; try lia. apply pow128_prod_bound; lia. Qed.

(** the result is the smallest integer not below p*b/10^9 *)
Theorem afb_least p b r :
  0 <= p <= 2 ^ 128 -> 0 <= b <= 2 ^ 128 ->
  amount_for_bytes p b = Ok r ->
  p * b <= r * GB /\ (forall r', p * b <= r' * GB -> r <= r').
Proof.
  intros Hp Hb H. rewrite afb_exact in H by assumption. injection H as <-.
  pose proof GB_pos. pose proof (cdiv_spec (p * b) GB ltac:(lia)) as Hs. cbv zeta in Hs.
  split; [lia|]. intros r' Hr'. nia.
Qed.

Theorem afb_zero p : 0 <= p <= 2 ^ 128 -> amount_for_bytes p 0 = Ok 0.
Proof.
  intros. rewrite afb_exact by lia. rewrite Z.mul_0_r, cdiv_0; [reflexivity|apply GB_pos].
Qed.

Theorem afb_mono p b b' r r' :
  0 <= p <= 2 ^ 128 -> 0 <= b <= b' -> b' <= 2 ^ 128 ->
  amount_for_bytes p b = Ok r -> amount_for_bytes p b' = Ok r' -> r <= r'.
Proof.
  intros Hp Hb Hb' H H'. rewrite afb_exact in H, H' by lia.
  injection H as <-; injection H' as <-. apply cdiv_mono; [apply GB_pos|nia].
Qed.

(** charging once for the sum never totals more than charging separately, and
    separate charges exceed it by at most one base unit *)
Theorem afb_subadditive p b1 b2 r1 r2 r :
  0 <= p <= 2 ^ 128 -> 0 <= b1 -> 0 <= b2 -> b1 + b2 <= 2 ^ 128 ->
  amount_for_bytes p b1 = Ok r1 -> amount_for_bytes p b2 = Ok r2 ->
  amount_for_bytes p (b1 + b2) = Ok r -> r <= r1 + r2 /\ r1 + r2 <= r + 1.
Proof.
  intros Hp H1 H2 H12 E1 E2 E. rewrite afb_exact in E1, E2, E by lia.
  injection E1 as <-; injection E2 as <-; injection E as <-.
  replace (p * (b1 + b2)) with (p * b1 + p * b2) by ring.
  split; [apply cdiv_subadd|apply cdiv_superadd]; apply GB_pos.
Qed.

(** ** GetProportionOfCoin *)

Lemma proportion_gen a s :
  0 <= a -> 0 <= s <= P18 -> a * P18 < MAXDEC -> a < MAXINT ->
  exists r, proportion a s = Ok r /\ r = chop_round (a * s) /\
            0 <= r <= a /\ - HALF18 <= r * P18 - a * s <= HALF18.
Proof.
  intros Ha Hs Hdec Hint. pose proof P18_pos. pose proof HALF18_P18.
  unfold proportion, dec_of_int, dec_mul.
  replace (a * P18 * s) with ((a * s) * P18) by ring.
  assert (0 <= a * s <= a * P18) by nia.
  rewrite chop_round_exact by lia.
  destruct (Z.abs (a * s) <? MAXDEC) eqn:E; [|lia].
  cbn [rbind]. unfold dec_round_int.
  rewrite chop_round_nonneg by lia.
  pose proof (chop_round_pos_bounds (a * s) ltac:(lia)) as [Hr0 Hr]. cbv zeta in *.
  set (r := chop_round_pos (a * s)) in *.
  assert (r <= a).
  { (* r*P18 <= a*s + HALF18 <= a*P18 + HALF18 < (a+1)*P18 *) nia. }
  unfold chk, fits. destruct (Z.abs r <? MAXINT) eqn:E2; [|lia].
  cbn [rbind]. destruct (r <? 0) eqn:E3; [lia|].
  exists r. repeat split; lia.
Qed.

Theorem proportion_exact a s :
  0 <= a <= 2 ^ 128 -> 0 <= s <= P18 ->
  exists r, proportion a s = Ok r /\ r = chop_round (a * s) /\
            0 <= r <= a /\ - HALF18 <= r * P18 - a * s <= HALF18.
Proof.
  intros Ha Hs.
  assert (2 ^ 128 * P18 < MAXDEC) by (vm_compute; reflexivity).
  assert (2 ^ 128 < MAXINT) by (vm_compute; reflexivity).
  pose proof P18_pos. apply proportion_gen; [lia|exact Hs|nia|lia].
Qed.

(* payee + fee = payment, with the fee within half a base unit of share*payment *)
Corollary split_exact a s fee :
  0 <= a <= 2 ^ 128 -> 0 <= s <= P18 -> proportion a s = Ok fee ->
  0 <= fee <= a /\ 0 <= a - fee /\ fee + (a - fee) = a /\
  - HALF18 <= fee * P18 - a * s <= HALF18.
Proof.
  intros Ha Hs H. destruct (proportion_exact a s Ha Hs) as (r & Hr & _ & Hb & Hc).
  rewrite H in Hr. injection Hr as ->. lia.
Qed.

(** ** Bandwidth.CeilTo, per component *)

Theorem ceil_to_spec pre v :
  0 < pre -> 0 <= v -> v + pre < MAXINT ->
  exists r, ceil_to1 pre v = Ok r /\ (pre | r) /\ v <= r < v + pre.
Proof.
  intros Hpre Hv Hlim. unfold ceil_to1.
  destruct (pre <=? 0) eqn:E; [lia|].
  unfold int_mod. destruct (pre =? 0) eqn:E0; [lia|]. destruct (0 <? pre) eqn:E1; [|lia].
  cbn [rbind].
  pose proof (Z.mod_pos_bound v pre Hpre) as Hm.
  pose proof (Z.div_mod v pre ltac:(lia)) as Hdm.
  unfold int_sub, chk, fits.
  destruct (Z.abs (pre - v mod pre) <? MAXINT) eqn:E2; [|lia].
  cbn [rbind]. unfold int_add, chk, fits.
  destruct (pre - v mod pre =? pre) eqn:E3.
  - assert (v mod pre = 0) by lia.
    destruct (Z.abs (v + 0) <? MAXINT) eqn:E4; [|lia].
    exists (v + 0). split; [reflexivity|]. split; [|lia].
    exists (v / pre). lia.
  - destruct (Z.abs (v + (pre - v mod pre)) <? MAXINT) eqn:E4; [|lia].
    eexists. split; [reflexivity|]. split; [|lia].
    exists (v / pre + 1). lia.
Qed.

Theorem ceil_to_nonpositive pre v : pre <= 0 -> ceil_to1 pre v = Ok v.
Proof. intros. unfold ceil_to1. destruct (pre <=? 0) eqn:E; [reflexivity|lia]. Qed.

(* least multiple not below v *)
Corollary ceil_to_least pre v r m :
  0 < pre -> 0 <= v -> v + pre < MAXINT -> ceil_to1 pre v = Ok r ->
  (pre | m) -> v <= m -> r <= m.
Proof.
  intros Hpre Hv Hl H [k ->] Hm.
  destruct (ceil_to_spec pre v Hpre Hv Hl) as (r' & Hr' & [j Hj] & Hb).
  rewrite H in Hr'. injection Hr' as <-. subst r.
  destruct (Z_le_gt_dec j k) as [Hjk|Hjk]; [nia|].
  assert (pre <= (j - k) * pre) by nia. nia.
Qed.
