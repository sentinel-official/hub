(* Genesis round trip (C12): what import (export s) preserves, module by module,
   and what it loses.  The model is Model/Genesis.v. *)
From Hub Require Import Base.Prelude Base.Arith Model.Types Model.Keeper Model.Handlers Model.Hooks Model.Step Model.Genesis.
From Hub Require Import Proofs.Tactics Proofs.Sorting.

(** * generic facts about the folds used by InitGenesis *)

Lemma rfold_total {A S} (f : S -> A -> S) (l : list A) (s : S) :
  rfold (fun s x => Ok (f s x)) l s = Ok (fold_left f l s).
Proof. revert s. induction l as [|x l IH]; intros s; simpl; [reflexivity|apply IH]. Qed.

Lemma fold_left_cond {A S} (c : A -> bool) (g : S -> A -> S) (l : list A) (s : S) :
  fold_left (fun m x => if c x then g m x else m) l s = fold_left g (filter (fun x => c x = true) l) s.
Proof.
  revert s. induction l as [|x l IH]; intros s; simpl; [reflexivity|].
  rewrite filter_cons. destruct (c x) eqn:E.
  - rewrite decide_True by reflexivity. simpl. apply IH.
  - rewrite decide_False by discriminate. apply IH.
Qed.

Section fold_insert.
  Context {K : Type} `{Countable K} {V A : Type} (key : A -> K) (val : A -> V).
  Definition ins_all (l : list A) (m : gmap K V) : gmap K V :=
    fold_left (fun m x => <[key x := val x]> m) l m.

  Lemma ins_all_notin l m k : (forall x, x ∈ l -> key x <> k) -> ins_all l m !! k = m !! k.
  Proof.
    revert m. induction l as [|y l IH]; intros m Hk; simpl; [reflexivity|].
    unfold ins_all in *. simpl. rewrite IH.
    - apply lookup_insert_ne. apply Hk. left.
    - intros x Hx. apply Hk. right. exact Hx.
  Qed.

  Lemma ins_all_in l m x : NoDup (map key l) -> x ∈ l -> ins_all l m !! (key x) = Some (val x).
  Proof.
    revert m. induction l as [|y l IH]; intros m Hnd Hx; [inversion Hx|].
    simpl in Hnd. apply NoDup_cons in Hnd as [Hy Hnd].
    unfold ins_all in *. simpl.
    apply elem_of_cons in Hx as [ ->|Hx].
    - fold (ins_all l (<[key y := val y]> m)). rewrite ins_all_notin; [apply lookup_insert|].
      intros x Hx E. apply Hy. rewrite <- E. apply elem_of_list_fmap_1. exact Hx.
    - apply IH; assumption.
  Qed.

  (* the fold rebuilds exactly the map whose graph the list enumerates *)
  Lemma ins_all_eq l (m : gmap K V) :
    NoDup (map key l) ->
    (forall k v, m !! k = Some v <-> exists x, x ∈ l /\ key x = k /\ val x = v) ->
    ins_all l ∅ = m.
  Proof.
    intros Hnd Hm. apply map_eq. intros k.
    destruct (m !! k) as [v|] eqn:E.
    - apply Hm in E as (x & Hx & <- & <-). apply ins_all_in; assumption.
    - rewrite ins_all_notin; [apply lookup_empty|].
      intros x Hx Hk. assert (m !! k = Some (val x)) as E2 by (apply Hm; eauto). congruence.
  Qed.
End fold_insert.

Section fold_union.
  Context {E : Type} `{Countable E} {A : Type} (f : A -> E).
  Definition add_all (l : list A) (q : gset E) : gset E := fold_left (fun q x => q ∪ {[ f x ]}) l q.
  Lemma elem_of_add_all l q e : e ∈ add_all l q <-> e ∈ q \/ exists x, x ∈ l /\ f x = e.
  Proof.
    revert q. induction l as [|y l IH]; intros q; simpl.
    - split; [auto|]. intros [?|(x & Hx & _)]; [assumption|inversion Hx].
    - unfold add_all in *. simpl. rewrite IH. rewrite elem_of_union, elem_of_singleton. split.
      + intros [[?| ->]|(x & Hx & Hf)]; [auto| |].
        * right. exists y. split; [left|reflexivity].
        * right. exists x. split; [right; exact Hx|exact Hf].
      + intros [?|(x & Hx & Hf)]; [auto|].
        apply elem_of_cons in Hx as [ ->|Hx]; [left; right; symmetry; exact Hf|right; eauto].
  Qed.
  Lemma add_all_eq l (q : gset E) : (forall e, e ∈ q <-> exists x, x ∈ l /\ f x = e) -> add_all l ∅ = q.
  Proof. intros Hq. apply sets.set_eq. intros e. rewrite elem_of_add_all, Hq. set_solver. Qed.
End fold_union.

(* the listing of a map in key order enumerates its graph *)
Lemma elem_of_sorted_list {K V} `{Countable K} (c : K * V -> K * V -> comparison) (m : gmap K V) kv :
  kv ∈ sort_by c (map_to_list m) <-> m !! kv.1 = Some kv.2.
Proof. rewrite elem_of_sort_by. destruct kv as [k v]. apply elem_of_map_to_list. Qed.

Lemma NoDup_fst_sorted_list {K V} `{Countable K} (c : K * V -> K * V -> comparison) (m : gmap K V) :
  NoDup (sort_by c (map_to_list m)).*1.
Proof.
  assert (Hp : (sort_by c (map_to_list m)).*1 ≡ₚ (map_to_list m).*1) by (apply fmap_Permutation, sort_by_perm).
  rewrite Hp. apply NoDup_fst_map_to_list.
Qed.

(* values listed in key order, for maps whose values carry their key *)
Lemma elem_of_sorted_vals {K V} `{Countable K} (c : K * V -> K * V -> comparison) (m : gmap K V) v :
  v ∈ map snd (sort_by c (map_to_list m)) <-> exists k, m !! k = Some v.
Proof.
  rewrite elem_of_list_fmap. split.
  - intros ([k v'] & -> & Hin). apply elem_of_sorted_list in Hin. eauto.
  - intros (k & Hk). exists (k, v). split; [reflexivity|]. apply elem_of_sorted_list. exact Hk.
Qed.

Lemma map_key_sorted_vals {K V} `{Countable K} (c : K * V -> K * V -> comparison) (m : gmap K V) (key : V -> K) :
  (forall k v, m !! k = Some v -> key v = k) ->
  map key (map snd (sort_by c (map_to_list m))) = (sort_by c (map_to_list m)).*1.
Proof.
  intros Hk. rewrite map_map. apply map_ext_in. intros [k v] Hin. simpl.
  apply Hk. apply (elem_of_sorted_list c m (k, v)). apply elem_of_list_In. exact Hin.
Qed.

Lemma NoDup_key_sorted_vals {K V} `{Countable K} (c : K * V -> K * V -> comparison) (m : gmap K V) (key : V -> K) :
  (forall k v, m !! k = Some v -> key v = k) ->
  NoDup (map key (map snd (sort_by c (map_to_list m)))).
Proof. intros Hk. rewrite (map_key_sorted_vals c m key Hk). apply NoDup_fst_sorted_list. Qed.

(** * closed forms of the per-module imports *)

Definition gp_id (i : gplan) : Z := pl_id (gp_plan i).
Definition gp_links (i : gplan) (q : gset (Z * addr)) : gset (Z * addr) := add_all (fun a => (gp_id i, a)) (gp_nodes i) q.
Definition is_inact (x : status) : bool := match x with SInactive => true | _ => false end.
Definition is_act (x : status) : bool := match x with SActive => true | _ => false end.
Definition dep_cf l (s : state) := s <| deposits := ins_all fst snd l (deposits s) |>.
Definition node_cf l (s : state) :=
  s <| node_act := ins_all nd_addr id (filter (fun n => is_act (nd_status n) = true) l) (node_act s) |>
    <| node_inact := ins_all nd_addr id (filter (fun n => is_inact (nd_status n) = true) l) (node_inact s) |>
    <| node_q := add_all (fun n => (nd_inactive_at n, nd_addr n)) (filter (fun n => is_act (nd_status n) = true) l) (node_q s) |>.
Definition plan_cf l (s : state) :=
  s <| plan_act := ins_all gp_id gp_plan (filter (fun i => is_act (pl_status (gp_plan i)) = true) l) (plan_act s) |>
    <| plan_inact := ins_all gp_id gp_plan (filter (fun i => is_inact (pl_status (gp_plan i)) = true) l) (plan_inact s) |>
    <| plan_prov := add_all (fun i => (pl_prov (gp_plan i), gp_id i)) l (plan_prov s) |>
    <| node_plan := fold_left (fun q i => gp_links i q) l (node_plan s) |>.
Definition prov_cf l (s : state) :=
  s <| prov_act := ins_all pv_addr id (filter (fun p => is_act (pv_status p) = true) l) (prov_act s) |>
    <| prov_inact := ins_all pv_addr id (filter (fun p => is_inact (pv_status p) = true) l) (prov_inact s) |>.
Definition sess_cf l (s : state) :=
  s <| sessions := ins_all ss_id id l (sessions s) |>
    <| sess_acc := add_all (fun x => (ss_addr x, ss_id x)) l (sess_acc s) |>
    <| sess_node := add_all (fun x => (ss_node x, ss_id x)) l (sess_node s) |>
    <| sess_sub := add_all (fun x => (ss_sub x, ss_id x)) l (sess_sub s) |>
    <| sess_alloc := add_all (fun x => (ss_sub x, ss_addr x, ss_id x)) l (sess_alloc s) |>
    <| sess_q := add_all (fun x => (ss_inactive_at x, ss_id x)) l (sess_q s) |>.
Definition swap_cf l (s : state) := s <| swaps := ins_all (fun w => swap_key_of (sw_hash w)) id l (swaps s) |>.
Definition infl_cf l (s : state) := s <| inflations := ins_all inf_ts id l (inflations s) |>.

(* two states with the same fields *)
Ltac same_fields s := f_equal; destruct s; reflexivity.

Lemma imp_closed {A} (step : state -> A -> state) (cf : list A -> state -> state) :
  (forall s, cf [] s = s) -> (forall x l s, cf l (step s x) = cf (x :: l) s) ->
  forall l s, rfold (fun s x => Ok (step s x)) l s = Ok (cf l s).
Proof.
  intros H0 Hs l s. rewrite rfold_total. f_equal. revert s.
  induction l as [|x l IH]; intros s; simpl; [symmetry; apply H0|]. rewrite IH. apply Hs.
Qed.

Lemma imp_deposits_closed l s : rfold imp_deposit l s = Ok (dep_cf l s).
Proof. apply (imp_closed _ dep_cf); [intros s0|intros x l0 s0]; destruct s0; reflexivity. Qed.
Lemma imp_swaps_closed l s : rfold imp_swap l s = Ok (swap_cf l s).
Proof. apply (imp_closed _ swap_cf); [intros s0|intros x l0 s0]; destruct s0; reflexivity. Qed.
Lemma imp_inflations_closed l s : rfold imp_inflation l s = Ok (infl_cf l s).
Proof. apply (imp_closed _ infl_cf); [intros s0|intros x l0 s0]; destruct s0; reflexivity. Qed.
Lemma imp_sessions_closed l s : rfold imp_session l s = Ok (sess_cf l s).
Proof. apply (imp_closed _ sess_cf); [intros s0|intros x l0 s0]; destruct s0; reflexivity. Qed.

Lemma imp_providers_closed l s :
  Forall (fun p => status_ai (pv_status p) = true) l ->
  rfold imp_provider l s = Ok (prov_cf l s).
Proof.
  unfold prov_cf.
  revert s. induction l as [|d l IH]; intros s Hl; simpl.
  - same_fields s.
  - apply Forall_cons in Hl as [Hd Hl]. unfold imp_provider at 1, set_provider.
    rewrite !filter_cons.
    destruct (pv_status d) eqn:E; simpl in Hd; try discriminate; simpl; rewrite IH by exact Hl; same_fields s.
Qed.

Lemma imp_node_step s n :
  status_ai (nd_status n) = true ->
  imp_node s n = Ok (if is_act (nd_status n)
                     then s <| node_act ::= fun m => <[nd_addr n := n]> m |>
                            <| node_q ::= fun q => q ∪ {[ (nd_inactive_at n, nd_addr n) ]} |>
                     else s <| node_inact ::= fun m => <[nd_addr n := n]> m |>).
Proof.
  intros Hs. unfold imp_node, set_node. destruct (nd_status n) eqn:E; simpl in Hs; try discriminate; reflexivity.
Qed.

Lemma imp_nodes_closed l s :
  Forall (fun n => status_ai (nd_status n) = true) l ->
  rfold imp_node l s = Ok (node_cf l s).
Proof.
  unfold node_cf.
  revert s. induction l as [|d l IH]; intros s Hl; simpl.
  - same_fields s.
  - apply Forall_cons in Hl as [Hd Hl]. rewrite imp_node_step by exact Hd. simpl rbind.
    rewrite IH by exact Hl. rewrite !filter_cons.
    destruct (nd_status d) eqn:E; simpl in Hd; try discriminate; simpl; same_fields s.
Qed.

Lemma imp_plan_links_closed id l s :
  Forall (fun a => addr_ok a = true) l ->
  rfold (imp_plan_link id) l s = Ok (s <| node_plan := add_all (fun a => (id, a)) l (node_plan s) |>).
Proof.
  revert s. induction l as [|a l IH]; intros s Hl; simpl.
  - same_fields s.
  - apply Forall_cons in Hl as [Ha Hl]. unfold imp_plan_link at 1. rewrite Ha. simpl rbind.
    rewrite IH by exact Hl. same_fields s.
Qed.

Lemma imp_plan_step s i :
  status_ai (pl_status (gp_plan i)) = true -> Forall (fun a => addr_ok a = true) (gp_nodes i) ->
  imp_plan s i =
  Ok ((if is_act (pl_status (gp_plan i))
       then s <| plan_act ::= fun m => <[gp_id i := gp_plan i]> m |>
       else s <| plan_inact ::= fun m => <[gp_id i := gp_plan i]> m |>)
        <| plan_prov ::= fun x => x ∪ {[ (pl_prov (gp_plan i), gp_id i) ]} |>
        <| node_plan ::= gp_links i |>).
Proof.
  intros Hs Hl. unfold imp_plan, set_plan.
  destruct (pl_status (gp_plan i)) eqn:E; simpl in Hs; try discriminate; simpl rbind;
    rewrite imp_plan_links_closed by exact Hl; same_fields s.
Qed.

Lemma imp_plans_closed l s :
  Forall (fun i => status_ai (pl_status (gp_plan i)) = true) l ->
  Forall (fun i => Forall (fun a => addr_ok a = true) (gp_nodes i)) l ->
  rfold imp_plan l s = Ok (plan_cf l s).
Proof.
  unfold plan_cf.
  revert s. induction l as [|d l IH]; intros s Hl Hn; simpl.
  - same_fields s.
  - apply Forall_cons in Hl as [Hd Hl]. apply Forall_cons in Hn as [Hdn Hn].
    rewrite imp_plan_step by assumption. simpl rbind.
    rewrite IH by assumption. rewrite !filter_cons.
    destruct (pl_status (gp_plan d)) eqn:E; simpl in Hd; try discriminate; simpl; same_fields s.
Qed.

Lemma elem_of_links l q e :
  e ∈ fold_left (fun q i => gp_links i q) l q <-> e ∈ q \/ exists i a, i ∈ l /\ a ∈ gp_nodes i /\ e = (gp_id i, a).
Proof.
  revert q. induction l as [|i l IH]; intros q; simpl.
  - split; [auto|]. intros [?|(i & a & Hi & _)]; [assumption|inversion Hi].
  - rewrite IH. unfold gp_links at 1. rewrite elem_of_add_all. split.
    + intros [[?|(a & Ha & <-)]|(j & a & Hj & Ha & ->)]; [auto| |].
      * right. exists i, a. split; [left|auto].
      * right. exists j, a. split; [right; exact Hj|auto].
    + intros [?|(j & a & Hj & Ha & ->)]; [auto|].
      apply elem_of_cons in Hj as [ ->|Hj]; [left; right; eauto|right; eauto 6].
Qed.

(** * closed form of the whole import *)

Definition imported (d : gen_doc) (s : state) : state :=
  let q := gd_params d in
  let s := dep_cf (gd_deposits d) s in
  let s := node_cf (gd_nodes d) (set_node_params q s) in
  let s := plan_cf (gd_plans d) s in
  let s := s <| plan_count := max_id (fun i => pl_id (gp_plan i)) (gd_plans d) |> in
  let s := prov_cf (gd_providers d) (set_prov_params q s) in
  let s := sess_cf (gd_sessions d) (set_sess_params q s) in
  let s := s <| sess_count := max_id ss_id (gd_sessions d) |> in
  let s := set_sub_params q s in
  let s := swap_cf (gd_swaps d) (set_swap_params q s) in
  infl_cf (gd_inflations d) s.

(* what InitGenesis needs in order not to panic *)
Definition doc_wf (d : gen_doc) : Prop :=
  Forall (fun n => status_ai (nd_status n) = true) (gd_nodes d) /\
  Forall (fun i => status_ai (pl_status (gp_plan i)) = true) (gd_plans d) /\
  Forall (fun i => Forall (fun a => addr_ok a = true) (gp_nodes i)) (gd_plans d) /\
  Forall (fun p => status_ai (pv_status p) = true) (gd_providers d).

Lemma rbind_Ok {A B} (a : A) (f : A -> res B) : rbind (Ok a) f = f a.
Proof. reflexivity. Qed.

Lemma import_hub_closed d s : doc_wf d -> import_hub d s = Ok (imported d s).
Proof.
  intros (Hn & Hp & Hl & Hv).
  unfold import_hub, import_vpn, import_swap, import_mint, imported.
  rewrite imp_deposits_closed, rbind_Ok.
  rewrite imp_nodes_closed by exact Hn. rewrite rbind_Ok.
  rewrite imp_plans_closed by assumption. rewrite rbind_Ok.
  rewrite imp_providers_closed by exact Hv. rewrite rbind_Ok.
  rewrite imp_sessions_closed, rbind_Ok, rbind_Ok.
  rewrite imp_swaps_closed, rbind_Ok.
  rewrite imp_inflations_closed. reflexivity.
Qed.

(** * the imported state (a fresh chain: every hub field starts empty; the fields compute) *)

Lemma pj_pars d s : pars (imported d (fresh_like s)) = gd_params d.
Proof. destruct d as [? ? ? ? ? ? ? ? q]. destruct q. reflexivity. Qed.

(** * stores split into an active and an inactive partition *)

Lemma NoDup_map_filter {A K} (key : A -> K) (P : A -> Prop) `{forall x, Decision (P x)} (l : list A) :
  NoDup (map key l) -> NoDup (map key (filter P l)).
Proof.
  induction l as [|x l IH]; simpl; intros Hnd; [constructor|].
  apply NoDup_cons in Hnd as [Hx Hnd]. rewrite filter_cons. destruct (decide (P x)); [|auto].
  simpl. apply NoDup_cons. split; [|auto].
  intros Hin. apply Hx. apply elem_of_list_fmap in Hin as (y & -> & Hy).
  apply elem_of_list_filter in Hy as [_ Hy]. apply elem_of_list_fmap_1. exact Hy.
Qed.

Lemma ins_all_map_filter {A B K V} `{Countable K} (g : A -> B) (P : B -> Prop) `{forall x, Decision (P x)}
      (key : B -> K) (val : B -> V) (l : list A) (m : gmap K V) :
  ins_all key val (filter P (map g l)) m = ins_all (fun x => key (g x)) (fun x => val (g x)) (filter (fun x => P (g x)) l) m.
Proof.
  revert m. induction l as [|x l IH]; intros m; simpl; [reflexivity|].
  rewrite !filter_cons. destruct (decide (P (g x))); simpl; apply IH.
Qed.

Section partition.
  Context {K V : Type} `{Countable K} (act inact : gmap K V) (key : V -> K) (st : V -> status)
          (c : K * V -> K * V -> comparison).
  Hypothesis Hact : forall k v, act !! k = Some v -> key v = k /\ st v = SActive.
  Hypothesis Hin : forall k v, inact !! k = Some v -> key v = k /\ st v = SInactive.
  Hypothesis Hdis : forall k, is_Some (act !! k) -> inact !! k = None.
  Let l := map snd (sort_by c (map_to_list act)) ++ map snd (sort_by c (map_to_list inact)).

  Lemma part_elem v : v ∈ l <-> (exists k, act !! k = Some v) \/ (exists k, inact !! k = Some v).
  Proof. unfold l. rewrite elem_of_app, !elem_of_sorted_vals. reflexivity. Qed.

  Lemma part_nodup : NoDup (map key l).
  Proof.
    unfold l. rewrite map_app. apply NoDup_app. split; [|split].
    - apply NoDup_key_sorted_vals. intros k v Hk. apply (Hact k v Hk).
    - intros x Hx Hx2. apply elem_of_list_fmap in Hx as (v & -> & Hv). apply elem_of_list_fmap in Hx2 as (w & Hkw & Hw).
      apply elem_of_sorted_vals in Hv as (k & Hk). apply elem_of_sorted_vals in Hw as (k2 & Hk2).
      destruct (Hact k v Hk) as [E1 _]. destruct (Hin k2 w Hk2) as [E2 _].
      assert (k = k2) by congruence. subst k2.
      assert (inact !! k = None) as E3 by (apply Hdis; eexists; exact Hk). congruence.
    - apply NoDup_key_sorted_vals. intros k v Hk. apply (Hin k v Hk).
  Qed.

  Lemma part_status : Forall (fun v => status_ai (st v) = true) l.
  Proof.
    apply Forall_forall. intros v Hv. apply part_elem in Hv as [(k & Hk)|(k & Hk)].
    - destruct (Hact k v Hk) as [_ ->]. reflexivity.
    - destruct (Hin k v Hk) as [_ ->]. reflexivity.
  Qed.

  Lemma part_rebuild_act : ins_all key id (filter (fun v => is_act (st v) = true) l) ∅ = act.
  Proof.
    apply ins_all_eq.
    - apply NoDup_map_filter, part_nodup.
    - intros k v. split.
      + intros Hk. exists v. destruct (Hact k v Hk) as [E1 E2]. split; [|auto].
        apply elem_of_list_filter. split; [rewrite E2; reflexivity|]. apply part_elem. eauto.
      + intros (x & Hx & <- & <-). apply elem_of_list_filter in Hx as [Hs Hx]. unfold id.
        apply part_elem in Hx as [(k & Hk)|(k & Hk)].
        * destruct (Hact k x Hk) as [<- _]. exact Hk.
        * destruct (Hin k x Hk) as [_ E]. rewrite E in Hs. discriminate.
  Qed.

  Lemma part_rebuild_inact : ins_all key id (filter (fun v => is_inact (st v) = true) l) ∅ = inact.
  Proof.
    apply ins_all_eq.
    - apply NoDup_map_filter, part_nodup.
    - intros k v. split.
      + intros Hk. exists v. destruct (Hin k v Hk) as [E1 E2]. split; [|auto].
        apply elem_of_list_filter. split; [rewrite E2; reflexivity|]. apply part_elem. eauto.
      + intros (x & Hx & <- & <-). apply elem_of_list_filter in Hx as [Hs Hx]. unfold id.
        apply part_elem in Hx as [(k & Hk)|(k & Hk)].
        * destruct (Hact k x Hk) as [_ E]. rewrite E in Hs. discriminate.
        * destruct (Hin k x Hk) as [<- _]. exact Hk.
  Qed.
End partition.

(* a store of records carrying their key (sessions, swaps, inflation entries, deposits) *)
Lemma keyed_rebuild {K V} `{Countable K} (m : gmap K V) (key : V -> K) (c : K * V -> K * V -> comparison) :
  (forall k v, m !! k = Some v -> key v = k) ->
  ins_all key id (map snd (sort_by c (map_to_list m))) ∅ = m.
Proof.
  intros Hk. apply ins_all_eq.
  - apply NoDup_key_sorted_vals. exact Hk.
  - intros k v. split.
    + intros Hm. exists v. split; [apply elem_of_sorted_vals; eauto|]. split; [apply (Hk k v Hm)|reflexivity].
    + intros (x & Hx & <- & <-). apply elem_of_sorted_vals in Hx as (k & Hm). unfold id. rewrite (Hk k x Hm). exact Hm.
Qed.

Lemma pairs_rebuild {K V} `{Countable K} (m : gmap K V) (c : K * V -> K * V -> comparison) :
  ins_all fst snd (sort_by c (map_to_list m)) ∅ = m.
Proof.
  apply ins_all_eq.
  - apply NoDup_fst_sorted_list.
  - intros k v. split.
    + intros Hm. exists (k, v). split; [apply elem_of_sorted_list; exact Hm|auto].
    + intros ([k' v'] & Hx & <- & <-). apply elem_of_sorted_list in Hx. exact Hx.
Qed.

(** * named premises: consistency of the stored records and of the secondary indices with them.
    Each is an invariant of the keepers (GenesisReach.v shows that they hold in every reachable state); here they
    are exactly what the corresponding InitGenesis relies on when it rebuilds the indices. *)

Definition part_ok {K V} `{Countable K} (act inact : gmap K V) (key : V -> K) (st : V -> status) : Prop :=
  (forall k v, act !! k = Some v -> key v = k /\ st v = SActive) /\
  (forall k v, inact !! k = Some v -> key v = k /\ st v = SInactive) /\
  (forall k, is_Some (act !! k) -> inact !! k = None).
Definition prov_store_ok (s : state) : Prop := part_ok (prov_act s) (prov_inact s) pv_addr pv_status.
Definition node_store_ok (s : state) : Prop := part_ok (node_act s) (node_inact s) nd_addr nd_status.
Definition plan_store_ok (s : state) : Prop := part_ok (plan_act s) (plan_inact s) pl_id pl_status.
Definition node_q_index_ok (s : state) : Prop :=
  forall t a, (t, a) ∈ node_q s <-> exists n, node_act s !! a = Some n /\ nd_inactive_at n = t.
Definition node_plan_index_ok (s : state) : Prop :=
  forall id a, (id, a) ∈ node_plan s ->
    addr_ok a = true /\ is_Some (get_plan s id) /\ exists n, get_node s a = Some n /\ nd_addr n = a.
Definition plan_prov_index_ok (s : state) : Prop :=
  forall a id, (a, id) ∈ plan_prov s <-> exists p, get_plan s id = Some p /\ pl_prov p = a.
Definition plan_count_ok (s : state) : Prop :=
  (forall id p, get_plan s id = Some p -> id <= plan_count s) /\ 0 <= plan_count s /\
  (plan_count s = 0 \/ is_Some (get_plan s (plan_count s))).
Definition sess_store_ok (s : state) : Prop := forall id x, sessions s !! id = Some x -> ss_id x = id.
Definition sess_index_ok (s : state) : Prop :=
  (forall t id, (t, id) ∈ sess_q s <-> exists x, sessions s !! id = Some x /\ ss_inactive_at x = t) /\
  (forall a id, (a, id) ∈ sess_acc s <-> exists x, sessions s !! id = Some x /\ ss_addr x = a) /\
  (forall a id, (a, id) ∈ sess_node s <-> exists x, sessions s !! id = Some x /\ ss_node x = a) /\
  (forall k id, (k, id) ∈ sess_sub s <-> exists x, sessions s !! id = Some x /\ ss_sub x = k) /\
  (forall k a id, (k, a, id) ∈ sess_alloc s <-> exists x, sessions s !! id = Some x /\ ss_sub x = k /\ ss_addr x = a).
Definition sess_ids_le_count (s : state) : Prop := forall id x, sessions s !! id = Some x -> 0 < id <= sess_count s.
Definition swap_store_ok (s : state) : Prop := forall h w, swaps s !! h = Some w -> sw_hash w = h /\ length h = 32%nat.
Definition infl_store_ok (s : state) : Prop := forall t i, inflations s !! t = Some i -> inf_ts i = t.

(** * the exported document in closed form *)

Definition mk_gplan (s : state) (p : plan) : gplan := {| gp_plan := p; gp_nodes := links_of s (pl_id p) |}.
Definition doc_of (s : state) : gen_doc :=
  {| gd_deposits := exp_deposits s; gd_providers := exp_providers s; gd_nodes := exp_nodes s;
     gd_plans := map (mk_gplan s) (all_plans s); gd_subs := []; gd_sessions := exp_sessions s;
     gd_swaps := exp_swaps s; gd_inflations := exp_inflations s; gd_params := pars s |}.

Lemma elem_of_links_of s id a : a ∈ links_of s id <-> (id, a) ∈ node_plan s.
Proof.
  unfold links_of. rewrite elem_of_sort_by, elem_of_list_bind. split.
  - intros ([i b] & Hy & Hin). simpl in Hy. case_bool_decide as E; [|inversion Hy].
    apply elem_of_list_singleton in Hy. subst. apply elem_of_elements in Hin. exact Hin.
  - intros Hin. exists (id, a). split; [|apply elem_of_elements; exact Hin].
    simpl. rewrite bool_decide_true by reflexivity. apply elem_of_list_singleton. reflexivity.
Qed.

Lemma NoDup_links_aux (q : list (Z * addr)) id :
  NoDup q -> NoDup (q ≫= fun e => if bool_decide (e.1 = id) then [e.2] else []).
Proof.
  induction q as [|[i a] q IH]; intros Hnd; [constructor|].
  apply NoDup_cons in Hnd as [Hx Hnd]. rewrite bind_cons. simpl. case_bool_decide as E; simpl; [|auto].
  apply NoDup_cons. split; [|auto].
  intros Hin. apply elem_of_list_bind in Hin as ([j b] & Hy & Hq). simpl in Hy.
  case_bool_decide as E2; [|inversion Hy]. apply elem_of_list_singleton in Hy. subst. apply Hx. exact Hq.
Qed.

Lemma NoDup_links_of s id : NoDup (links_of s id).
Proof. unfold links_of. apply NoDup_sort_by. apply NoDup_links_aux. apply NoDup_elements. Qed.

Lemma link_addrs_closed s l :
  (forall a, a ∈ l -> exists n, get_node s a = Some n /\ nd_addr n = a) -> link_addrs s l = Ok l.
Proof.
  induction l as [|a l IH]; intros Hl; simpl; [reflexivity|].
  destruct (Hl a) as (n & -> & E); [left|]. rewrite IH; [simpl; rewrite E; reflexivity|].
  intros b Hb. apply Hl. right. exact Hb.
Qed.

Lemma exp_plan_items_closed s l :
  node_plan_index_ok s -> exp_plan_items s l = Ok (map (mk_gplan s) l).
Proof.
  intros Hnp. induction l as [|p l IH]; simpl; [reflexivity|].
  rewrite link_addrs_closed; [rewrite IH; reflexivity|].
  intros a Ha. apply elem_of_links_of in Ha. apply (Hnp _ _ Ha).
Qed.

Lemma export_closed s : node_plan_index_ok s -> export s = Ok (doc_of s).
Proof. intros Hnp. unfold export, exp_plans. rewrite exp_plan_items_closed by exact Hnp. reflexivity. Qed.

Lemma doc_of_wf s :
  prov_store_ok s -> node_store_ok s -> plan_store_ok s -> node_plan_index_ok s -> doc_wf (doc_of s).
Proof.
  intros (Pa & Pi & Pd) (Na & Ni & Nd) (La & Li & Ld) Hnp. repeat split; simpl.
  - apply (part_status (node_act s) (node_inact s) nd_addr nd_status _ Na Ni).
  - apply Forall_fmap. apply (part_status (plan_act s) (plan_inact s) pl_id pl_status _ La Li).
  - apply Forall_fmap. apply Forall_forall. intros p _. simpl. apply Forall_forall. intros a Ha.
    apply elem_of_links_of in Ha. apply (Hnp _ _ Ha).
  - apply (part_status (prov_act s) (prov_inact s) pv_addr pv_status _ Pa Pi).
Qed.

Definition genesis_defined (s : state) : Prop :=
  prov_store_ok s /\ node_store_ok s /\ plan_store_ok s /\ node_plan_index_ok s.

Theorem roundtrip_closed s :
  genesis_defined s -> roundtrip s = Ok (validate (doc_of s), imported (doc_of s) (fresh_like s)).
Proof.
  intros (Hp & Hn & Hl & Hnp). unfold roundtrip, import.
  rewrite export_closed by exact Hnp. rewrite rbind_Ok.
  rewrite import_hub_closed by (apply doc_of_wf; assumption). reflexivity.
Qed.

(** * what the round trip preserves, module by module *)

Section agree.
  Variable s : state.
  Let s' := imported (doc_of s) (fresh_like s).

  Lemma rt_deposit : deposits s' = deposits s.
  Proof. apply pairs_rebuild. Qed.

  Lemma rt_provider : prov_store_ok s -> prov_act s' = prov_act s /\ prov_inact s' = prov_inact s.
  Proof.
    intros (Pa & Pi & Pd). split.
    - apply (part_rebuild_act (prov_act s) (prov_inact s) pv_addr pv_status _ Pa Pi Pd).
    - apply (part_rebuild_inact (prov_act s) (prov_inact s) pv_addr pv_status _ Pa Pi Pd).
  Qed.

  Lemma rt_node : node_store_ok s -> node_q_index_ok s ->
    node_act s' = node_act s /\ node_inact s' = node_inact s /\ node_q s' = node_q s.
  Proof.
    intros (Na & Ni & Nd) Hq. split; [|split].
    - apply (part_rebuild_act (node_act s) (node_inact s) nd_addr nd_status _ Na Ni Nd).
    - apply (part_rebuild_inact (node_act s) (node_inact s) nd_addr nd_status _ Na Ni Nd).
    - apply add_all_eq. intros [t a]. rewrite (Hq t a). split.
      + intros (n & Hn & <-). exists n. destruct (Na a n Hn) as [<- E]. split; [|reflexivity].
        apply elem_of_list_filter. split; [rewrite E; reflexivity|].
        apply (part_elem (node_act s) (node_inact s)). eauto.
      + intros (n & Hn & E). injection E as <- <-. apply elem_of_list_filter in Hn as [Hs Hn].
        apply (part_elem (node_act s) (node_inact s)) in Hn as [(k & Hk)|(k & Hk)].
        * destruct (Na k n Hk) as [<- _]. eauto.
        * destruct (Ni k n Hk) as [_ E]. rewrite E in Hs. discriminate.
  Qed.

  Lemma rt_swap : swap_store_ok s -> swaps s' = swaps s.
  Proof.
    intros Hk. apply (keyed_rebuild (swaps s) (fun w => swap_key_of (sw_hash w))). intros h w Hw. destruct (Hk h w Hw) as [-> Hl]. unfold swap_key_of. rewrite Hl. reflexivity.
  Qed.

  Lemma rt_mint : infl_store_ok s ->
    inflations s' = inflations s /\ mint_max s' = mint_max s /\ mint_min s' = mint_min s /\
    mint_rate s' = mint_rate s /\ mint_inflation s' = mint_inflation s.
  Proof.
    intros Hk. split; [|repeat split; reflexivity].
    apply (keyed_rebuild (inflations s) inf_ts). exact Hk.
  Qed.

  Lemma rt_params : pars s' = pars s.
  Proof. unfold s'. rewrite pj_pars. reflexivity. Qed.
End agree.

Lemma max_id_acc {A} (f : A -> Z) (l : list A) (c : Z) :
  let m := fold_left (fun c x => if c <? f x then f x else c) l c in
  c <= m /\ (forall x, x ∈ l -> f x <= m) /\ (m = c \/ exists x, x ∈ l /\ f x = m).
Proof.
  revert c. induction l as [|y l IH]; intros c; simpl.
  - split; [lia|]. split; [intros x Hx; inversion Hx|left; reflexivity].
  - specialize (IH (if c <? f y then f y else c)). simpl in IH. destruct IH as (I1 & I2 & I3).
    destruct (Z.ltb_spec c (f y)) as [Hlt|Hge].
    + split; [lia|]. split.
      * intros x Hx. apply elem_of_cons in Hx as [ ->|Hx]; [lia|auto].
      * destruct I3 as [->|(x & Hx & E)]; right; [exists y; split; [left|reflexivity]|exists x; split; [right; exact Hx|exact E]].
    + split; [lia|]. split.
      * intros x Hx. apply elem_of_cons in Hx as [ ->|Hx]; [lia|auto].
      * destruct I3 as [->|(x & Hx & E)]; [left; reflexivity|right; exists x; split; [right; exact Hx|exact E]].
Qed.

Lemma max_id_spec {A} (f : A -> Z) (l : list A) :
  0 <= max_id f l /\ (forall x, x ∈ l -> f x <= max_id f l) /\ (max_id f l = 0 \/ exists x, x ∈ l /\ f x = max_id f l).
Proof. apply (max_id_acc f l 0). Qed.

Lemma get_plan_iff s id p : plan_store_ok s ->
  get_plan s id = Some p <-> (plan_act s !! id = Some p \/ plan_inact s !! id = Some p).
Proof.
  intros (La & Li & Ld). unfold get_plan. destruct (plan_act s !! id) as [q|] eqn:E.
  - split; [intros H; left; exact H|]. intros [H|H]; [exact H|]. rewrite Ld in H by eauto. discriminate.
  - split; [intros H; right; exact H|]. intros [H|H]; [discriminate|exact H].
Qed.

Lemma get_plan_id s id p : plan_store_ok s -> get_plan s id = Some p -> pl_id p = id.
Proof.
  intros Hs Hp. pose proof Hs as (La & Li & Ld). apply (get_plan_iff s id p Hs) in Hp as [Hp|Hp].
  - apply (La _ _ Hp).
  - apply (Li _ _ Hp).
Qed.

Lemma elem_of_all_plans s p : plan_store_ok s -> p ∈ all_plans s <-> get_plan s (pl_id p) = Some p.
Proof.
  intros Hs. rewrite (get_plan_iff s (pl_id p) p Hs). destruct Hs as (La & Li & Ld).
  unfold all_plans, by_z. rewrite (part_elem (plan_act s) (plan_inact s)). split.
  - intros [(k & Hk)|(k & Hk)].
    + left. destruct (La k p Hk) as [<- _]. exact Hk.
    + right. destruct (Li k p Hk) as [<- _]. exact Hk.
  - intros [H|H]; [left|right]; eauto.
Qed.

Section agree2.
  Variable s : state.
  Let s' := imported (doc_of s) (fresh_like s).

  Lemma rt_plan :
    plan_store_ok s -> node_plan_index_ok s -> plan_prov_index_ok s -> plan_count_ok s ->
    plan_act s' = plan_act s /\ plan_inact s' = plan_inact s /\ plan_prov s' = plan_prov s /\
    node_plan s' = node_plan s /\ plan_count s' = plan_count s.
  Proof.
    intros Hs Hnp Hpp (C1 & C2 & C3). pose proof Hs as (La & Li & Ld).
    split; [|split; [|split; [|split]]].
    - etransitivity; [apply ins_all_map_filter|].
      apply (part_rebuild_act (plan_act s) (plan_inact s) pl_id pl_status _ La Li Ld).
    - etransitivity; [apply ins_all_map_filter|].
      apply (part_rebuild_inact (plan_act s) (plan_inact s) pl_id pl_status _ La Li Ld).
    - apply add_all_eq. intros [a id]. rewrite (Hpp a id). split.
      + intros (p & Hp & <-). exists (mk_gplan s p). split.
        * apply elem_of_list_fmap_1. apply elem_of_all_plans; [exact Hs|].
          rewrite (get_plan_id s id p Hs Hp). exact Hp.
        * unfold gp_id. simpl. rewrite (get_plan_id s id p Hs Hp). reflexivity.
      + intros (i & Hi & E). apply elem_of_list_fmap in Hi as (p & -> & Hp).
        injection E as <- <-. exists p. split; [|reflexivity]. apply elem_of_all_plans; assumption.
    - change (fold_left (fun q i => gp_links i q) (map (mk_gplan s) (all_plans s)) ∅ = node_plan s).
      apply sets.set_eq. intros [id a]. rewrite elem_of_links. split.
      + intros [Hin|(i & b & Hi & Hb & E)]; [set_solver|]. apply elem_of_list_fmap in Hi as (p & -> & Hp).
        simpl in Hb. unfold gp_id in E. simpl in E. injection E as -> ->. apply elem_of_links_of. exact Hb.
      + intros Hin. right. destruct (Hnp id a Hin) as (_ & (p & Hp) & _).
        assert (pl_id p = id) as Hid by (apply (get_plan_id s id p Hs Hp)).
        exists (mk_gplan s p), a. split; [|split].
        * apply elem_of_list_fmap_1. apply elem_of_all_plans; [exact Hs|]. rewrite Hid. exact Hp.
        * simpl. apply elem_of_links_of. rewrite Hid. exact Hin.
        * unfold gp_id. simpl. rewrite Hid. reflexivity.
    - change (max_id (fun i => pl_id (gp_plan i)) (map (mk_gplan s) (all_plans s)) = plan_count s).
      destruct (max_id_spec (fun i => pl_id (gp_plan i)) (map (mk_gplan s) (all_plans s))) as (M1 & M2 & M3).
      set (m := max_id _ _) in *.
      assert (m <= plan_count s).
      { destruct M3 as [->|(i & Hi & <-)]; [exact C2|]. apply elem_of_list_fmap in Hi as (p & -> & Hp). simpl.
        apply (C1 (pl_id p) p). apply elem_of_all_plans; assumption. }
      assert (plan_count s <= m).
      { destruct C3 as [->|(p & Hp)]; [exact M1|].
        assert (pl_id p = plan_count s) as Hid by (apply (get_plan_id s _ p Hs Hp)).
        rewrite <- Hid. apply (M2 (mk_gplan s p)). apply elem_of_list_fmap_1. apply elem_of_all_plans; [exact Hs|].
        rewrite Hid. exact Hp. }
      lia.
  Qed.
End agree2.

Section agree3.
  Variable s : state.
  Let s' := imported (doc_of s) (fresh_like s).

  Lemma elem_of_exp_sessions x : sess_store_ok s -> x ∈ exp_sessions s <-> sessions s !! ss_id x = Some x.
  Proof.
    intros Hk. unfold exp_sessions, by_z. rewrite elem_of_sorted_vals. split.
    - intros (k & Hx). rewrite (Hk k x Hx). exact Hx.
    - eauto.
  Qed.

  (* records and all five indices come back; the counter comes back as the largest LIVE id *)
  Lemma rt_session : sess_store_ok s -> sess_index_ok s ->
    sessions s' = sessions s /\ sess_q s' = sess_q s /\ sess_acc s' = sess_acc s /\ sess_node s' = sess_node s /\
    sess_sub s' = sess_sub s /\ sess_alloc s' = sess_alloc s /\
    (forall id x, sessions s !! id = Some x -> id <= sess_count s') /\
    (sess_count s' = 0 \/ is_Some (sessions s !! sess_count s')).
  Proof.
    intros Hk (Iq & Ia & In & Is & Il). change (sess_count s') with (max_id ss_id (exp_sessions s)).
    assert (forall {A} `{Countable A} (g : session -> A) (q : gset (A * Z)),
               (forall k id, (k, id) ∈ q <-> exists x, sessions s !! id = Some x /\ g x = k) ->
               add_all (fun x => (g x, ss_id x)) (exp_sessions s) ∅ = q) as Hidx.
    { intros A ? ? g q Hq. apply add_all_eq. intros [k id]. rewrite (Hq k id). split.
      - intros (x & Hx & <-). exists x. rewrite (Hk id x Hx). split; [|reflexivity].
        apply elem_of_exp_sessions; [exact Hk|]. rewrite (Hk id x Hx). exact Hx.
      - intros (x & Hx & E). injection E as <- <-. exists x. split; [apply elem_of_exp_sessions; assumption|reflexivity]. }
    split; [|split; [|split; [|split; [|split; [|split; [|split]]]]]].
    - apply (keyed_rebuild (sessions s) ss_id). exact Hk.
    - exact (Hidx _ _ _ ss_inactive_at _ Iq).
    - exact (Hidx _ _ _ ss_addr _ Ia).
    - exact (Hidx _ _ _ ss_node _ In).
    - exact (Hidx _ _ _ ss_sub _ Is).
    - apply (Hidx _ _ _ (fun x => (ss_sub x, ss_addr x))). intros [k a] id. rewrite (Il k a id).
      split; [intros (x & Hx & <- & <-); eauto|intros (x & Hx & E); injection E as <- <-; eauto].
    - intros id x Hx. destruct (max_id_spec ss_id (exp_sessions s)) as (_ & M2 & _).
      rewrite <- (Hk id x Hx). apply M2. apply elem_of_exp_sessions; [exact Hk|]. rewrite (Hk id x Hx). exact Hx.
    - destruct (max_id_spec ss_id (exp_sessions s)) as (_ & _ & [M3|(x & Hx & M3)]); [left; exact M3|right].
      rewrite <- M3. exists x. apply elem_of_exp_sessions; assumption.
  Qed.

  (* the subscription module: nothing but the parameter survives *)
  Lemma rt_subscription_lost :
    subs s' = ∅ /\ allocs s' = ∅ /\ payouts s' = ∅ /\ sub_count s' = 0 /\
    sub_q s' = ∅ /\ sub_acc s' = ∅ /\ sub_node s' = ∅ /\ sub_plan s' = ∅ /\
    pay_q s' = ∅ /\ pay_acc s' = ∅ /\ pay_node s' = ∅ /\ pay_acc_node s' = ∅.
  Proof. repeat split; reflexivity. Qed.
End agree3.

(** * the exported document passes validation *)

(* every stored record passes its own Validate (record-level invariants of the keepers), and the
   parameter sets are valid (DESIGN section 5.1; x/params validates every change) *)
Definition dep_records_ok (s : state) : Prop := forall a c, deposits s !! a = Some c -> validate_deposit (a, c) = true.
Definition prov_records_ok (s : state) : Prop :=
  forall p, (exists a, prov_act s !! a = Some p) \/ (exists a, prov_inact s !! a = Some p) -> validate_provider p = true.
Definition node_records_ok (s : state) : Prop :=
  forall n, (exists a, node_act s !! a = Some n) \/ (exists a, node_inact s !! a = Some n) -> validate_node n = true.
Definition plan_records_ok (s : state) : Prop :=
  forall p, (exists k, plan_act s !! k = Some p) \/ (exists k, plan_inact s !! k = Some p) -> validate_plan p = true.
Definition sess_records_ok (s : state) : Prop := forall id x, sessions s !! id = Some x -> validate_session x = true.
Definition swap_records_ok (s : state) : Prop := forall h w, swaps s !! h = Some w -> validate_swap w = true.
Definition infl_records_ok (s : state) : Prop := forall t i, inflations s !! t = Some i -> validate_inflation i = true.
Definition params_valid (p : params) : Prop :=
  prov_params_ok p = true /\ node_params_ok p = true /\ sub_params_ok p = true /\ sess_params_ok p = true /\ swap_params_ok p = true.

Lemma forallb_elem {A} (f : A -> bool) (l : list A) : (forall x, x ∈ l -> f x = true) -> forallb f l = true.
Proof. intros Hf. apply forallb_forall. intros x Hx. apply Hf. apply elem_of_list_In. exact Hx. Qed.
Lemma nodupb_true {A} `{EqDecision A} (l : list A) : NoDup l -> nodupb l = true.
Proof. intros Hn. unfold nodupb. apply bool_decide_eq_true_2. exact Hn. Qed.

Section valid.
  Variable s : state.
  Let d := doc_of s.

  Lemma val_deposit : dep_records_ok s -> v_deposit (validate d) = true.
  Proof.
    intros Hr. simpl. unfold validate_deposits. apply andb_true_intro. split.
    - apply nodupb_true. apply NoDup_fst_sorted_list.
    - apply forallb_elem. intros [a c] Hx. apply Hr. unfold exp_deposits, by_addr in Hx. apply elem_of_sorted_list in Hx. exact Hx.
  Qed.

  Lemma val_provider : prov_store_ok s -> prov_records_ok s -> prov_params_ok (pars s) = true -> v_provider (validate d) = true.
  Proof.
    intros (Pa & Pi & Pd) Hr Hp. simpl. unfold validate_providers. rewrite Hp. simpl. apply andb_true_intro. split.
    - apply nodupb_true. apply (part_nodup (prov_act s) (prov_inact s) pv_addr pv_status _ Pa Pi Pd).
    - apply forallb_elem. intros p Hx. apply Hr. apply (part_elem (prov_act s) (prov_inact s)) in Hx. exact Hx.
  Qed.

  Lemma val_node : node_store_ok s -> node_records_ok s -> node_params_ok (pars s) = true -> v_node (validate d) = true.
  Proof.
    intros (Pa & Pi & Pd) Hr Hp. simpl. unfold validate_nodes. rewrite Hp. simpl. apply andb_true_intro. split.
    - apply nodupb_true. apply (part_nodup (node_act s) (node_inact s) nd_addr nd_status _ Pa Pi Pd).
    - apply forallb_elem. intros p Hx. apply Hr. apply (part_elem (node_act s) (node_inact s)) in Hx. exact Hx.
  Qed.

  Lemma val_plan : plan_store_ok s -> plan_records_ok s -> v_plan (validate d) = true.
  Proof.
    intros (Pa & Pi & Pd) Hr. simpl. unfold validate_plans. apply andb_true_intro. split; [apply andb_true_intro; split|].
    - apply nodupb_true. rewrite map_map. simpl.
      apply (part_nodup (plan_act s) (plan_inact s) pl_id pl_status _ Pa Pi Pd).
    - apply forallb_elem. intros i Hi. apply elem_of_list_fmap in Hi as (p & -> & _). simpl.
      apply nodupb_true. apply NoDup_links_of.
    - apply forallb_elem. intros i Hi. apply elem_of_list_fmap in Hi as (p & -> & Hp). simpl.
      apply Hr. apply (part_elem (plan_act s) (plan_inact s)) in Hp. exact Hp.
  Qed.

  Lemma val_subscription : sub_params_ok (pars s) = true -> v_subscription (validate d) = true.
  Proof. intros Hp. simpl. unfold validate_subs. rewrite Hp. reflexivity. Qed.

  Lemma val_session : sess_store_ok s -> sess_records_ok s -> sess_params_ok (pars s) = true -> v_session (validate d) = true.
  Proof.
    intros Hk Hr Hp. simpl. unfold validate_sessions. rewrite Hp. simpl. apply andb_true_intro. split.
    - apply nodupb_true. unfold exp_sessions, by_z. apply NoDup_key_sorted_vals. exact Hk.
    - apply forallb_elem. intros x Hx. apply elem_of_sorted_vals in Hx as (k & Hx). apply (Hr k x Hx).
  Qed.

  Lemma val_swap : swap_store_ok s -> swap_records_ok s -> swap_params_ok (pars s) = true -> v_swap (validate d) = true.
  Proof.
    intros Hk Hr Hp. simpl. unfold validate_swaps. rewrite Hp. simpl. apply andb_true_intro. split.
    - apply nodupb_true. unfold exp_swaps, by_bytes. apply NoDup_key_sorted_vals. intros h w Hw. apply (Hk h w Hw).
    - apply forallb_elem. intros x Hx. apply elem_of_sorted_vals in Hx as (k & Hx). apply (Hr k x Hx).
  Qed.

  Lemma val_mint : infl_store_ok s -> infl_records_ok s -> v_mint (validate d) = true.
  Proof.
    intros Hk Hr. simpl. unfold validate_inflations. apply andb_true_intro. split.
    - apply nodupb_true. unfold exp_inflations, by_z. apply NoDup_key_sorted_vals. exact Hk.
    - apply forallb_elem. intros x Hx. apply elem_of_sorted_vals in Hx as (k & Hx). apply (Hr k x Hx).
  Qed.
End valid.

(** * the full statement, and why it is false of the code *)

Definition same_hub (s s' : state) : Prop :=
  cfg s' = cfg s /\ bank s' = bank s /\ supply s' = supply s /\ deposits s' = deposits s /\
  prov_act s' = prov_act s /\ prov_inact s' = prov_inact s /\
  node_act s' = node_act s /\ node_inact s' = node_inact s /\ node_q s' = node_q s /\ node_plan s' = node_plan s /\
  plan_count s' = plan_count s /\ plan_act s' = plan_act s /\ plan_inact s' = plan_inact s /\ plan_prov s' = plan_prov s /\
  sub_count s' = sub_count s /\ subs s' = subs s /\ sub_q s' = sub_q s /\ sub_acc s' = sub_acc s /\
  sub_node s' = sub_node s /\ sub_plan s' = sub_plan s /\ allocs s' = allocs s /\ payouts s' = payouts s /\
  pay_q s' = pay_q s /\ pay_acc s' = pay_acc s /\ pay_node s' = pay_node s /\ pay_acc_node s' = pay_acc_node s /\
  sess_count s' = sess_count s /\ sessions s' = sessions s /\ sess_q s' = sess_q s /\ sess_acc s' = sess_acc s /\
  sess_node s' = sess_node s /\ sess_sub s' = sess_sub s /\ sess_alloc s' = sess_alloc s /\
  pars s' = pars s /\ swaps s' = swaps s /\ inflations s' = inflations s /\
  mint_max s' = mint_max s /\ mint_min s' = mint_min s /\ mint_rate s' = mint_rate s /\ mint_inflation s' = mint_inflation s /\
  now s' = now s.

(* C12 as stated: from every reachable state the export validates, the re-imported chain holds the same
   records, indices, counters and parameters, and no continuation halts on it that runs on the original *)
Definition C12_full_statement : Prop :=
  forall g ops s, run (init g) ops = RunOk s ->
    exists v s', roundtrip s = Ok (v, s') /\ verdict_ok v = true /\ same_hub s s' /\
      forall ops2, (exists a, run s ops2 = RunOk a) -> (exists b, run s' ops2 = RunOk b).

Definition w_cfg : config :=
  {| c_deposit := [1%N]; c_feecoll := [2%N]; c_distr := [3%N]; c_swap := [4%N]; c_blocked := [[1%N]; [2%N]; [3%N]; [4%N]] |}.
Definition w_params : params :=
  {| p_prov_deposit := (1%N, 10); p_prov_share := 0; p_node_deposit := (1%N, 10); p_node_active := HOUR;
     p_max_gb := ∅; p_min_gb := ∅; p_max_hr := ∅; p_min_hr := ∅;
     p_max_sub_gb := 10; p_min_sub_gb := 1; p_max_sub_hr := 10; p_min_sub_hr := 1; p_node_share := 0;
     p_sub_delay := 120; p_sess_delay := 120; p_sess_proof := false;
     p_swap_enabled := true; p_swap_denom := 1%N; p_swap_approver := canon RAcc [9%N] |}.
Definition w_genesis : genesis :=
  {| g_cfg := w_cfg; g_balances := [([7%N], (1%N, 1000)); ([8%N], (1%N, 1000))]; g_params := w_params;
     g_inflations := []; g_mint := (1, 1, 1, 1); g_time := 0 |}.
(* a node registers and goes active, an account buys 2 GB on it *)
Definition w_ops_sub : list op :=
  [ OBegin 1000;
    OTx (MNodeRegister (canon RAcc [7%N]) (Some [(1%N, 5)]) (Some [(1%N, 7)]) "https://n:1" true);
    OTx (MNodeUpdateStatus (canon RNode [7%N]) SActive);
    OTx (MNodeSubscribe (canon RAcc [8%N]) (canon RNode [7%N]) 2 0 1%N);
    OEnd ].
(* ... starts session 1 and ends it; the session is still pending at the end of the block *)
Definition w_ops_live_session : list op :=
  w_ops_sub ++ [ OBegin 2000; OTx (MSessStart (canon RAcc [8%N]) 1 (canon RNode [7%N])); OTx (MSessEnd (canon RAcc [8%N]) 1 0); OEnd ].
(* ... and one block later session 1 has been settled and removed *)
Definition w_ops_session_gone : list op := w_ops_live_session ++ [ OBegin 3000; OEnd ].

Definition wit (ops : list op) (P : state -> verdict -> state -> bool) : bool :=
  match run (init w_genesis) ops with
  | RunOk s => match roundtrip s with Ok (v, s') => P s v s' | _ => false end
  | _ => false
  end.
Lemma wit_elim ops P : wit ops P = true ->
  exists s v s', run (init w_genesis) ops = RunOk s /\ roundtrip s = Ok (v, s') /\ P s v s' = true.
Proof.
  unfold wit. destruct (run (init w_genesis) ops) as [s|]; [|discriminate].
  destruct (roundtrip s) as [[v s']| |] eqn:Hrt; try discriminate.
  intros HP. exists s, v, s'. split; [reflexivity|]. split; [exact Hrt|exact HP].
Qed.
Definition is_nil {A} (l : list A) : bool := match l with [] => true | _ => false end.
Lemma is_nil_map {K V} `{Countable K} (m : gmap K V) : is_nil (map_to_list m) = true -> m = ∅.
Proof. intros E. apply map_to_list_empty_iff. destruct (map_to_list m); [reflexivity|discriminate]. Qed.

Definition P_sub (s : state) (v : verdict) (s' : state) : bool :=
  verdict_ok v && bool_decide (is_Some (subs s !! 1)) && bool_decide (is_Some (allocs s !! (1, [8%N]))) &&
  (sub_count s =? 1) && is_nil (map_to_list (subs s')) && is_nil (map_to_list (allocs s')) && (sub_count s' =? 0).
Lemma P_sub_true : wit w_ops_sub P_sub = true.
Proof. vm_compute. reflexivity. Qed.

Lemma refuted_subscriptions :
  exists ops s v s', run (init w_genesis) ops = RunOk s /\ roundtrip s = Ok (v, s') /\ verdict_ok v = true /\
    is_Some (subs s !! 1) /\ is_Some (allocs s !! (1, [8%N])) /\ sub_count s = 1 /\
    subs s' = ∅ /\ allocs s' = ∅ /\ sub_count s' = 0.
Proof.
  destruct (wit_elim _ _ P_sub_true) as (s & v & s' & Hrun & Hrt & HP). exists w_ops_sub, s, v, s'.
  unfold P_sub in HP. rewrite !andb_true_iff in HP. destruct HP as [[[[[[H1 H2] H3] H4] H5] H6] H7].
  split; [exact Hrun|]. split; [exact Hrt|]. split; [exact H1|].
  split; [apply (bool_decide_eq_true_1 _ H2)|]. split; [apply (bool_decide_eq_true_1 _ H3)|].
  split; [apply Z.eqb_eq; exact H4|]. split; [apply is_nil_map; exact H5|]. split; [apply is_nil_map; exact H6|].
  apply Z.eqb_eq; exact H7.
Qed.

Definition P_cnt (s : state) (v : verdict) (s' : state) : bool :=
  verdict_ok v && is_nil (map_to_list (sessions s)) && (sess_count s =? 1) && (sess_count s' =? 0).
Lemma P_cnt_true : wit w_ops_session_gone P_cnt = true.
Proof. vm_compute. reflexivity. Qed.

Lemma refuted_session_counter :
  exists ops s v s', run (init w_genesis) ops = RunOk s /\ roundtrip s = Ok (v, s') /\ verdict_ok v = true /\
    sessions s = ∅ /\ sess_count s = 1 /\ sess_count s' = 0.
Proof.
  destruct (wit_elim _ _ P_cnt_true) as (s & v & s' & Hrun & Hrt & HP). exists w_ops_session_gone, s, v, s'.
  unfold P_cnt in HP. rewrite !andb_true_iff in HP. destruct HP as [[[H1 H2] H3] H4].
  split; [exact Hrun|]. split; [exact Hrt|]. split; [exact H1|].
  split; [apply is_nil_map; exact H2|]. split; apply Z.eqb_eq; assumption.
Qed.

(* a chain re-imported while session 1 is pending halts in the EndBlock that settles it *)
Definition P_halt (s : state) (v : verdict) (s' : state) : bool :=
  verdict_ok v && (match run s [OBegin 3000; OEnd] with RunOk _ => true | _ => false end) &&
  (match run s' [OBegin 3000; OEnd] with RunHalt _ _ => true | _ => false end).
Lemma P_halt_true : wit w_ops_live_session P_halt = true.
Proof. vm_compute. reflexivity. Qed.

Lemma refuted_continuation_halts :
  exists ops s v s', run (init w_genesis) ops = RunOk s /\ roundtrip s = Ok (v, s') /\ verdict_ok v = true /\
    (exists a, run s [OBegin 3000; OEnd] = RunOk a) /\ (exists b i, run s' [OBegin 3000; OEnd] = RunHalt b i).
Proof.
  destruct (wit_elim _ _ P_halt_true) as (s & v & s' & Hrun & Hrt & HP). exists w_ops_live_session, s, v, s'.
  unfold P_halt in HP. rewrite !andb_true_iff in HP. destruct HP as [[H1 H2] H3].
  split; [exact Hrun|]. split; [exact Hrt|]. split; [exact H1|]. split.
  - destruct (run s [OBegin 3000; OEnd]); [eauto|discriminate].
  - destruct (run s' [OBegin 3000; OEnd]); [discriminate|eauto].
Qed.

Lemma full_statement_refuted : ~ C12_full_statement.
Proof.
  intros Hfull. destruct refuted_subscriptions as (ops & s & v & s' & Hrun & Hrt & _ & Hsub & _ & _ & Hs' & _).
  destruct (Hfull _ _ _ Hrun) as (v2 & s2 & Hrt2 & _ & Hsame & _).
  rewrite Hrt in Hrt2. injection Hrt2 as <- <-.
  destruct Hsame as (_ & _ & _ & _ & _ & _ & _ & _ & _ & _ & _ & _ & _ & _ & _ & Hsubs & _).
  rewrite Hs' in Hsubs. rewrite <- Hsubs in Hsub. rewrite lookup_empty in Hsub. destruct Hsub as [? ?]. discriminate.
Qed.

(** * [roundtrip] in closed form, for the per-module statements *)

Section packaged.
  Variables (s : state) (v : verdict) (s' : state).
  Hypothesis Hd : genesis_defined s.
  Hypothesis Hrt : roundtrip s = Ok (v, s').

  Lemma rt_inv : v = validate (doc_of s) /\ s' = imported (doc_of s) (fresh_like s).
  Proof. rewrite roundtrip_closed in Hrt by exact Hd. injection Hrt as <- <-. split; reflexivity. Qed.

  Lemma partial_sdk_side : bank s' = bank s /\ supply s' = supply s /\ cfg s' = cfg s /\ now s' = now s.
  Proof. destruct rt_inv as [_ ->]. repeat split; reflexivity. Qed.
End packaged.

(* the export/import pair is defined (no panic) on every state satisfying the store premises *)
Lemma roundtrip_defined s : genesis_defined s -> exists v s', roundtrip s = Ok (v, s').
Proof. intros Hd. rewrite roundtrip_closed by exact Hd. eauto. Qed.
