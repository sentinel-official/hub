(* Supply and swaps (C14, and the supply clause of C01): only an accepted MsgSwap changes
   the supply, by exactly the recorded amount; a hash is swapped at most once. *)
From Hub Require Import Base.Prelude Base.Arith Model.Types Model.Keeper Model.Handlers Model.Hooks Model.Step.
From Hub Require Import Proofs.Tactics Proofs.Effects Proofs.Frames Proofs.Money.

Definition is_swap (m : msg) : bool := match m with MSwap _ _ _ _ => true | _ => false end.

(* every operation other than a swap request leaves supply and swap records alone *)
Theorem non_swap_step s o s' :
  (forall m, o = OTx m -> is_swap m = false) -> step s o = OOk s' ->
  supply s' = supply s /\ swaps s' = swaps s.
Proof.
  intros Hm H. apply step_inv in H. destruct o.
  - apply begin_block_keeps in H.
    split; [exact (keeps_supply _ _ _ H eq_refl)|exact (keeps_swap _ _ _ H eq_refl)].
  - destruct H as [_ H]. apply handle_frame in H. specialize (Hm m eq_refl).
    split; [apply (keeps_supply _ _ _ H)|apply (keeps_swap _ _ _ H)]; destruct m; reflexivity || discriminate Hm.
  - destruct H as [_ ->]. apply (fold_left_inv (fun x => supply x = supply s /\ swaps x = swaps s)); [|split; reflexivity].
    intros x c [Hx1 Hx2]. pose proof (apply_pchange_keeps x c) as K.
    split; [rewrite (keeps_supply _ _ _ K eq_refl); exact Hx1|rewrite (keeps_swap _ _ _ K eq_refl); exact Hx2].
  - destruct H as (x & H & ->). apply end_block_keeps in H.
    split; [exact (keeps_supply _ _ _ H eq_refl)|exact (keeps_swap _ _ _ H eq_refl)].
Qed.

Theorem swap_step s from hash receiver amount s' :
  step s (OTx (MSwap from hash receiver amount)) = OOk s' ->
  let d := p_swap_denom (pars s) in
  let q := Z.quot amount 100 in
  p_swap_enabled (pars s) = true /\
  p_swap_approver (pars s) = from /\
  swaps s !! hash = None /\
  Z.of_nat (length hash) = 32 /\ 100 <= amount /\
  swaps s' = <[hash := {| sw_hash := hash; sw_receiver := receiver; sw_amount := (d, q) |}]> (swaps s) /\
  supply s' = coins_add (supply s) d q /\
  is_blocked s (ta_bytes receiver) = false /\
  (forall x d', x <> c_swap (cfg s) ->
     bal s' x d' = bal s x d' + delta (bool_decide (ta_bytes receiver = x /\ d = d')) q).
Proof.
  intros H. apply step_inv in H as [Hv H]. simpl in H.
  destruct (h_swap_effect _ _ _ _ _ _ H) as (s1 & s2 & He & Ha & Hn & Hq & H1 & H2 & E). cbv zeta.
  simpl in Hv. repeat rewrite andb_true_iff in Hv. destruct Hv as ((((_ & _) & Hlen) & Hamt) & _).
  apply bank_send_to_account_inv in H2 as [Hbl H2].
  pose proof (bank_send_keeps _ _ _ _ _ _ H2) as K2.
  assert (F : swaps s' = <[hash := {| sw_hash := hash; sw_receiver := receiver; sw_amount := (p_swap_denom (pars s), Z.quot amount 100) |}]> (swaps s2)
              /\ supply s' = supply s2 /\ bank s' = bank s2) by (rewrite E; repeat split).
  clear E. destruct F as (F1 & F2 & F3).
  split; [exact He|]. split; [exact Ha|]. split; [exact Hn|]. split; [lia|]. split; [lia|].
  split; [rewrite F1, (keeps_swap _ _ _ K2 eq_refl), (keeps_swap _ _ _ (bank_mint_keeps _ _ _ _ _ H1) eq_refl); reflexivity|].
  split.
  { rewrite F2, (keeps_supply _ _ _ K2 eq_refl). exact (proj2 (bank_mint_supply _ _ _ _ _ H1)). }
  split; [unfold is_blocked in *; rewrite (proj1 (bank_mint_keeps _ _ _ _ _ H1)) in Hbl; exact Hbl|].
  intros y d' _. unfold bal at 1. rewrite F3. exact (mint_send_bal _ _ _ _ _ _ _ H1 H2 y d').
Qed.

(* a hash that has been swapped is never swapped again *)
Theorem swap_once s from hash receiver amount w :
  swaps s !! hash = Some w -> step s (OTx (MSwap from hash receiver amount)) = ORejected.
Proof.
  intros Hw. destruct (step s _) as [s'| |] eqn:E; try reflexivity.
  - apply swap_step in E. cbv zeta in E. destruct E as (_ & _ & Hn & _). simpl in Hn. congruence.
  - unfold step in E. destruct (run_tx _ _); discriminate.
Qed.

Lemma step_swap_or_not s o s' :
  step s o = OOk s' ->
  (exists hash w, swaps s !! hash = None /\ swaps s' = <[hash := w]> (swaps s) /\
                  supply s' = coins_add (supply s) (sw_amount w).1 (sw_amount w).2) \/
  (supply s' = supply s /\ swaps s' = swaps s).
Proof.
  intros H. destruct (match o with OTx (MSwap _ _ _ _) => true | _ => false end) eqn:Eo.
  - left. destruct o as [|[]| |]; try discriminate. apply swap_step in H. cbv zeta in H.
    destruct H as (_ & _ & Hn & _ & _ & Hs & Hsup & _). eauto.
  - right. apply (non_swap_step s o s'); [|exact H]. intros m ->. destruct m; try reflexivity. discriminate.
Qed.

(* recorded swaps are never removed or altered *)
Theorem swaps_monotone s o s' h w : step s o = OOk s' -> swaps s !! h = Some w -> swaps s' !! h = Some w.
Proof.
  intros H Hw. destruct (step_swap_or_not _ _ _ H) as [(hash & w' & Hn & -> & _)|[_ ->]]; [|exact Hw].
  rewrite lookup_insert_ne; [exact Hw|]. intros ->. congruence.
Qed.

(** * supply = genesis supply + sum of the recorded swaps *)

Definition swap_total (s : state) (d : denom) : Z :=
  msum (fun w => if bool_decide ((sw_amount w).1 = d) then (sw_amount w).2 else 0) (swaps s).

Theorem supply_tracks_swaps s o s' d :
  step s o = OOk s' ->
  amount_of (supply s') d - amount_of (supply s) d = swap_total s' d - swap_total s d.
Proof.
  intros H. unfold swap_total. destruct (step_swap_or_not _ _ _ H) as [(hash & w & Hn & -> & ->)|[-> ->]]; [|lia].
  rewrite msum_insert_fresh by exact Hn. rewrite amount_of_coins_add. case_bool_decide; lia.
Qed.

Theorem supply_tracks_swaps_run ops : forall s i s' d,
  run_from s ops i = RunOk s' ->
  amount_of (supply s') d - amount_of (supply s) d = swap_total s' d - swap_total s d.
Proof.
  induction ops as [|o ops IH]; simpl; intros s i s' d H.
  - injection H as <-. lia.
  - destruct (step s o) as [s1| |] eqn:E; try discriminate.
    + pose proof (supply_tracks_swaps _ _ _ d E). pose proof (IH _ _ _ d H). lia.
    + pose proof (IH _ _ _ d H) as H1. exact H1.
Qed.
