(* Calendar: [civil_from_days] is strictly monotone (lexicographically in
   year, month, day) for ALL day numbers.  Within one 400-year era (146097 days)
   [civil_of_doe] first finds the year of the era (the year starting on 1 March that
   contains the day), then month and day from the day of that year; each half is
   linear arithmetic with constant divisors.  The era structure of the definition
   (year = year-of-era + 400*era) lifts the result to every era ([civil_step]). *)
From Hub Require Import Base.Prelude Base.Time.

Definition code (c : Z * Z * Z) : Z := let '(y, m, d) := c in y * 10000 + m * 100 + d.

(* ---- one era ---- *)
Definition ERA_DAYS : Z := 146097.

(* the two halves of [civil_of_doe]: the year of the era, counted from 1 March ... *)
Definition yoe_of (doe : Z) : Z := (doe - doe / 1460 + doe / 36524 - doe / 146096) / 365.
Definition year_start (y : Z) : Z := 365 * y + y / 4 - y / 100.
(* ... and month and day from the day of that year; January and February belong to the next civil
   year (carry 1) *)
Definition md_of (doy : Z) : Z * Z * Z :=
  let mp := (5 * doy + 2) / 153 in
  let m := if mp <? 10 then mp + 3 else mp - 9 in
  (if m <=? 2 then 1 else 0, m, doy - (153 * mp + 2) / 5 + 1).

Lemma civil_of_doe_split doe :
  civil_of_doe doe = let '(c, m, d) := md_of (doe - year_start (yoe_of doe)) in (yoe_of doe + c, m, d).
Proof. reflexivity. Qed.

(* the year found is the one that contains the day; the last year of the era ends on the 29 February
   that [year_start], having no 400-year term, does not count *)
Lemma yoe_spec doe : 0 <= doe < ERA_DAYS ->
  0 <= yoe_of doe < 400 /\ year_start (yoe_of doe) <= doe /\
  (doe < year_start (yoe_of doe + 1) \/ doe = ERA_DAYS - 1 /\ yoe_of doe = 399).
Proof. unfold yoe_of, year_start, ERA_DAYS. Z.div_mod_to_equations. lia. Qed.

Lemma md_of_cases doy : 0 <= doy <= 365 ->
  let mp := (5 * doy + 2) / 153 in
  md_of doy = (0, mp + 3, doy - (153 * mp + 2) / 5 + 1) /\ mp < 10 \/
  md_of doy = (1, mp - 9, doy - (153 * mp + 2) / 5 + 1) /\ 10 <= mp <= 11.
Proof.
  intros H mp. unfold md_of. fold mp.
  assert (0 <= mp <= 11) by (subst mp; Z.div_mod_to_equations; lia).
  destruct (Z.ltb_spec mp 10); [left|right].
  - rewrite (proj2 (Z.leb_gt _ _)) by lia. auto.
  - rewrite (proj2 (Z.leb_le _ _)) by lia. auto with zarith.
Qed.

(* 1 March = 0301 ... 29 February of the next year = 1 0229 *)
Lemma md_range doy : 0 <= doy <= 365 ->
  let '(c, m, d) := md_of doy in 1 <= m <= 12 /\ 1 <= d <= 31 /\ 301 <= code (c, m, d) <= 10229.
Proof.
  intros H. destruct (md_of_cases doy H) as [[-> ?]|[-> ?]]; cbn [code]; Z.div_mod_to_equations; lia.
Qed.

Lemma md_step doy : 0 <= doy < 365 -> code (md_of doy) < code (md_of (doy + 1)).
Proof.
  intros H. destruct (md_of_cases doy) as [[-> ?]|[-> ?]]; [lia|..];
    (destruct (md_of_cases (doy + 1)) as [[-> ?]|[-> ?]]; [lia|..]); cbn [code]; Z.div_mod_to_equations; lia.
Qed.

Lemma code_of_doe doe :
  code (civil_of_doe doe) = yoe_of doe * 10000 + code (md_of (doe - year_start (yoe_of doe))).
Proof. rewrite civil_of_doe_split. destruct (md_of _) as [[c m] d]. cbn [code]. lia. Qed.

Lemma doy_range doe : 0 <= doe < ERA_DAYS -> 0 <= doe - year_start (yoe_of doe) <= 365.
Proof.
  intros H. destruct (yoe_spec doe H) as (Hy & Hlo & Hhi). revert Hlo Hhi. generalize (yoe_of doe) Hy.
  unfold year_start, ERA_DAYS in *. intros y. Z.div_mod_to_equations. lia.
Qed.

Lemma era_range doe : 0 <= doe < ERA_DAYS ->
  let '(y, m, d) := civil_of_doe doe in 1 <= m <= 12 /\ 1 <= d <= 31.
Proof.
  intros H. rewrite civil_of_doe_split. pose proof (md_range _ (doy_range doe H)) as Hr.
  destruct (md_of _) as [[c m] d]. tauto.
Qed.

(* within an era the date code strictly increases from one day to the next (the proof: the two days
   are in the same year of the era, or the second is the first day of the next) *)
Lemma era_step doe : 0 <= doe < ERA_DAYS - 1 -> code (civil_of_doe doe) < code (civil_of_doe (doe + 1)).
Proof.
  intros H. rewrite !code_of_doe.
  destruct (yoe_spec doe ltac:(lia)) as (Hy & Hlo & Hhi), (yoe_spec (doe + 1) ltac:(lia)) as (Hy' & Hlo' & Hhi').
  pose proof (doy_range doe ltac:(lia)) as Hd. pose proof (doy_range (doe + 1) ltac:(lia)) as Hd'.
  pose proof (md_range _ Hd) as Hr. pose proof (md_range _ Hd') as Hr'.
  assert (Hnext : yoe_of (doe + 1) = yoe_of doe \/ yoe_of (doe + 1) = yoe_of doe + 1).
  { revert Hlo Hhi Hlo' Hhi'. generalize (yoe_of doe) (yoe_of (doe + 1)) Hy Hy'. unfold year_start, ERA_DAYS in *.
    intros y y'. Z.div_mod_to_equations. lia. }
  destruct Hnext as [E|E]; rewrite E in *.
  - replace (doe + 1 - year_start (yoe_of doe)) with (doe - year_start (yoe_of doe) + 1) in * by lia.
    pose proof (md_step (doe - year_start (yoe_of doe)) ltac:(lia)). lia.
  - destruct (md_of (doe - _)) as [[c m] d], (md_of (doe + 1 - _)) as [[c' m'] d']. lia.
Qed.

Lemma era_wrap : code (civil_of_doe (ERA_DAYS - 1)) < code (civil_of_doe 0) + 400 * 10000.
Proof. reflexivity. Qed.

(* ---- all eras ---- *)
Lemma civil_from_days_era era doe : 0 <= doe < ERA_DAYS ->
  civil_from_days (ERA_DAYS * era + doe - 719468) =
  let '(y, m, d) := civil_of_doe doe in (y + era * 400, m, d).
Proof.
  intros H. unfold civil_from_days.
  replace (ERA_DAYS * era + doe - 719468 + 719468) with (ERA_DAYS * era + doe) by lia.
  change 146097 with ERA_DAYS.
  rewrite <- (Z.div_unique (ERA_DAYS * era + doe) ERA_DAYS era doe) by first [left; lia | reflexivity].
  rewrite <- (Z.mod_unique (ERA_DAYS * era + doe) ERA_DAYS era doe) by first [left; lia | reflexivity].
  reflexivity.
Qed.

Lemma days_split days : exists era doe, 0 <= doe < ERA_DAYS /\ days = ERA_DAYS * era + doe - 719468.
Proof.
  exists ((days + 719468) / ERA_DAYS), ((days + 719468) mod ERA_DAYS).
  split; [apply Z.mod_pos_bound; reflexivity|].
  assert (H := Z.div_mod (days + 719468) ERA_DAYS ltac:(discriminate)). lia.
Qed.

Lemma code_era era doe : 0 <= doe < ERA_DAYS ->
  code (civil_from_days (ERA_DAYS * era + doe - 719468)) = code (civil_of_doe doe) + era * 4000000.
Proof.
  intros H. rewrite civil_from_days_era by exact H.
  destruct (civil_of_doe doe) as [[y m] d]. cbn [code]. lia.
Qed.

Lemma civil_step days : code (civil_from_days days) < code (civil_from_days (days + 1)).
Proof.
  destruct (days_split days) as (era & doe & Hd & ->).
  rewrite code_era by exact Hd.
  destruct (Z.eq_dec doe (ERA_DAYS - 1)) as [->|Hne].
  - replace (ERA_DAYS * era + (ERA_DAYS - 1) - 719468 + 1) with (ERA_DAYS * (era + 1) + 0 - 719468) by lia.
    rewrite code_era by (unfold ERA_DAYS; lia).
    pose proof era_wrap. lia.
  - replace (ERA_DAYS * era + doe - 719468 + 1) with (ERA_DAYS * era + (doe + 1) - 719468) by lia.
    rewrite code_era by lia.
    pose proof (era_step doe ltac:(lia)). lia.
Qed.

Lemma civil_mono_lt d1 d2 : d1 < d2 -> code (civil_from_days d1) < code (civil_from_days d2).
Proof.
  intros H. replace d2 with (d1 + 1 + Z.of_nat (Z.to_nat (d2 - d1 - 1))) by lia.
  induction (Z.to_nat (d2 - d1 - 1)) as [|n IH].
  - rewrite Z.add_0_r. apply civil_step.
  - eapply Z.lt_trans; [exact IH|].
    replace (d1 + 1 + Z.of_nat (S n)) with (d1 + 1 + Z.of_nat n + 1) by lia. apply civil_step.
Qed.

Lemma civil_code_cmp d1 d2 : Z.compare (code (civil_from_days d1)) (code (civil_from_days d2)) = Z.compare d1 d2.
Proof.
  destruct (Z.compare_spec d1 d2) as [->|H|H].
  - apply Z.compare_refl.
  - apply Z.compare_lt_iff, civil_mono_lt, H.
  - apply Z.compare_gt_iff, civil_mono_lt, H.
Qed.

Lemma civil_range days : let '(y, m, d) := civil_from_days days in 1 <= m <= 12 /\ 1 <= d <= 31.
Proof.
  destruct (days_split days) as (era & doe & Hd & ->).
  rewrite civil_from_days_era by exact Hd.
  pose proof (era_range doe Hd) as Hr.
  destruct (civil_of_doe doe) as [[y m] d]. lia.
Qed.
