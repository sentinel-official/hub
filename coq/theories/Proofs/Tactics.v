(* Proof infrastructure shared by all preservation proofs: inversion of the
   result monad and of the checked arithmetic, lifting of invariants through
   [rfold] and along histories, finite sums over gmaps. *)
From Hub Require Import Base.Prelude Base.Arith Model.Types Model.Keeper Model.Handlers Model.Hooks Model.Step.

Lemma ensure_ok b u : ensure b = Ok u -> b = true.
Proof. destruct b; simpl; [reflexivity|discriminate]. Qed.
Lemma assertp_ok b u : assertp b = Ok u -> b = true.
Proof. destruct b; simpl; [reflexivity|discriminate]. Qed.
Lemma must_ok {A} (m : res A) a : must m = Ok a -> m = Ok a.
Proof. destruct m; simpl; congruence. Qed.

Lemma ok_inj {A} (a b : A) : Ok a = Ok b -> a = b.
Proof. intros [= E]. exact E. Qed.
(* one field of a returned state, without substituting the state *)
Lemma Ok_field {A B} (f : A -> B) (a b : A) : Ok a = Ok b -> f b = f a.
Proof. intros [= ->]. reflexivity. Qed.

Lemma chk_ok z r : chk z = Ok r -> r = z.
Proof. unfold chk. destruct (fits z); [intros [= <-]; reflexivity|discriminate]. Qed.
Lemma chk_fits z r : chk z = Ok r -> fits z = true.
Proof. unfold chk. destruct (fits z); [reflexivity|discriminate]. Qed.
Lemma int_add_ok a b c : int_add a b = Ok c -> c = a + b.
Proof. apply chk_ok. Qed.
Lemma int_sub_ok a b c : int_sub a b = Ok c -> c = a - b.
Proof. apply chk_ok. Qed.
Lemma int_mul_ok a b c : int_mul a b = Ok c -> c = a * b.
Proof. apply chk_ok. Qed.
Lemma int_quo_ok a b c : int_quo a b = Ok c -> b <> 0 /\ c = Z.quot a b.
Proof. unfold int_quo. destruct (b =? 0) eqn:E; [discriminate|]. intros [= <-]. split; [lia|reflexivity]. Qed.
Lemma new_coin_ok d a c : new_coin d a = Ok c -> c = (d, a) /\ 0 <= a.
Proof. unfold new_coin. destruct (a <? 0) eqn:E; [discriminate|]. intros [= <-]. split; [reflexivity|lia]. Qed.
Lemma coin_sub_ok c a r : coin_sub c a = Ok r -> r = (c.1, c.2 - a) /\ 0 <= c.2 - a.
Proof.
  unfold coin_sub. intros H. apply rbind_ok in H as (z & Hz & H). apply chk_ok in Hz as ->. exact (new_coin_ok _ _ _ H).
Qed.

Lemma rbind_err_or_panic {A B} (m : res A) (f : A -> res B) :
  rbind m f <> Panic -> m <> Panic.
Proof. destruct m; simpl; congruence. Qed.

(* one inversion step on a hypothesis of the shape [... = Ok _] *)
Ltac res_inv1 :=
  match goal with
  | H : rbind _ _ = Ok _ |- _ =>
      let x := fresh "x" in let Hx := fresh "Hx" in
      apply rbind_ok in H as (x & Hx & H)
  | H : ensure _ = Ok _ |- _ => apply ensure_ok in H
  | H : assertp _ = Ok _ |- _ => apply assertp_ok in H
  | H : must _ = Ok _ |- _ => apply must_ok in H
  | H : Ok _ = Ok _ |- _ => injection H as H; try subst
  | H : (_, _) = (_, _) |- _ => injection H as ? ?; try subst
  | H : Err = Ok _ |- _ => discriminate H
  | H : Panic = Ok _ |- _ => discriminate H
  | H : (if ?b then _ else _) = Ok _ |- _ => destruct b eqn:?
  | H : (if ?b then _ else _) = (_, _) |- _ => destruct b eqn:?
  | H : (match ?o with Some _ => _ | None => _ end) = (_, _) |- _ => destruct o eqn:?
  | H : (match ?o with Some _ => _ | None => _ end) = Ok _ |- _ => destruct o eqn:?
  | H : (match ?o with Ok _ => _ | Err => _ | Panic => _ end) = Ok _ |- _ => destruct o eqn:?
  | H : (let '(_, _) := ?p in _) = Ok _ |- _ => destruct p eqn:?
  | H : (match ?p with (_, _) => _ end) = Ok _ |- _ => destruct p eqn:?
  | H : (match ?x with _ => _ end) = Ok _ |- _ => destruct x eqn:?
  | H : (match ?x with _ => _ end) = (_, _) |- _ => destruct x eqn:?
  end.
Ltac res_inv := repeat res_inv1.

(* invariants through rfold *)
Lemma rfold_inv {A S} (P : S -> Prop) (f : S -> A -> res S) l s s' :
  (forall s x s', P s -> f s x = Ok s' -> P s') ->
  P s -> rfold f l s = Ok s' -> P s'.
Proof.
  intros Hf. revert s. induction l as [|x l IH]; simpl; intros s Hs H.
  - injection H as <-. exact Hs.
  - apply rbind_ok in H as (s1 & H1 & H2). eapply IH; [|exact H2]. eapply Hf; eauto.
Qed.

(* the same with membership information about the element *)
Lemma rfold_inv_in {A S} (P : S -> Prop) (f : S -> A -> res S) l s s' :
  (forall s x s', x ∈ l -> P s -> f s x = Ok s' -> P s') ->
  P s -> rfold f l s = Ok s' -> P s'.
Proof.
  revert s. induction l as [|x l IH]; simpl; intros s Hf Hs H.
  - injection H as <-. exact Hs.
  - apply rbind_ok in H as (s1 & H1 & H2). eapply IH; [| |exact H2].
    + intros s2 y s3 Hy. apply Hf. right. exact Hy.
    + eapply Hf; eauto. left.
Qed.

(* a reflexive-transitive relation between the state before and after *)
Lemma rfold_rel {A S} (R : S -> S -> Prop) (f : S -> A -> res S) l s s' :
  (forall s, R s s) -> (forall a b c, R a b -> R b c -> R a c) ->
  (forall s x s', f s x = Ok s' -> R s s') ->
  rfold f l s = Ok s' -> R s s'.
Proof.
  intros Hr Ht Hf. revert s. induction l as [|x l IH]; simpl; intros s H.
  - injection H as <-. apply Hr.
  - apply rbind_ok in H as (s1 & H1 & H2). eapply Ht; [eapply Hf; eauto|eapply IH; eauto].
Qed.

(* the same with the part of the list still to come *)
Lemma rfold_rest {A S} (P : list A -> S -> Prop) (f : S -> A -> res S) l : forall s s',
  (forall x rest s s', P (x :: rest) s -> f s x = Ok s' -> P rest s') ->
  P l s -> rfold f l s = Ok s' -> P [] s'.
Proof.
  induction l as [|x l IH]; simpl; intros s s' Hf Hp H.
  - injection H as <-. exact Hp.
  - apply rbind_ok in H as (s1 & H1 & H2). eapply IH; [exact Hf| |exact H2]. eapply Hf; eauto.
Qed.

Lemma run_from_inv (P : state -> Prop) ops : forall s i s',
  (forall s o s', P s -> step s o = OOk s' -> P s') -> (forall s, P s -> P (clear_events s)) ->
  P s -> run_from s ops i = RunOk s' -> P s'.
Proof.
  intros s i s' Hstep Hclear. revert s i. induction ops as [|o ops IH]; simpl; intros s i Hs H.
  - injection H as <-. exact Hs.
  - destruct (step s o) eqn:E; try discriminate; (eapply IH; [|exact H]); eauto.
Qed.

Lemma fold_left_inv {A S} (P : S -> Prop) (f : S -> A -> S) l s :
  (forall s x, P s -> P (f s x)) -> P s -> P (fold_left f l s).
Proof. intros Hf. revert s. induction l; simpl; auto. Qed.

(** * sums over finite maps *)

Definition msum {K} `{Countable K} {V} (f : V -> Z) (m : gmap K V) : Z :=
  map_fold (fun _ v acc => acc + f v) 0 m.

Section msum.
  Context {K : Type} `{Countable K} {V : Type} (f : V -> Z).

  Lemma msum_empty : msum f (∅ : gmap K V) = 0.
  Proof. unfold msum. apply map_fold_empty. Qed.

  Lemma msum_insert_fresh (m : gmap K V) k v :
    m !! k = None -> msum f (<[k := v]> m) = msum f m + f v.
  Proof.
    intros Hk. unfold msum.
    rewrite (map_fold_insert_L (fun _ v acc => acc + f v)); [reflexivity| |exact Hk].
    intros; lia.
  Qed.

  Lemma msum_delete (m : gmap K V) k v :
    m !! k = Some v -> msum f m = msum f (delete k m) + f v.
  Proof.
    intros Hk. rewrite <- (insert_delete m k v Hk) at 1.
    apply msum_insert_fresh. apply lookup_delete.
  Qed.

  Lemma msum_insert (m : gmap K V) k v :
    msum f (<[k := v]> m) = msum f m - (match m !! k with Some w => f w | None => 0 end) + f v.
  Proof.
    destruct (m !! k) as [w|] eqn:Hk.
    - rewrite <- insert_delete_insert. rewrite msum_insert_fresh by apply lookup_delete.
      rewrite (msum_delete m k w Hk). lia.
    - rewrite msum_insert_fresh by exact Hk. lia.
  Qed.

  Lemma msum_delete' (m : gmap K V) k :
    msum f (delete k m) = msum f m - (match m !! k with Some w => f w | None => 0 end).
  Proof.
    destruct (m !! k) as [w|] eqn:Hk.
    - rewrite (msum_delete m k w Hk). lia.
    - rewrite delete_notin by exact Hk. lia.
  Qed.
End msum.

Section msum_more.
  Context {K : Type} `{Countable K} {V : Type}.

  Lemma msum_ext (f g : V -> Z) (m : gmap K V) :
    (forall k v, m !! k = Some v -> f v = g v) -> msum f m = msum g m.
  Proof.
    induction m as [|k v m Hk IH] using map_ind; intros Hfg.
    - rewrite !msum_empty. reflexivity.
    - rewrite !msum_insert_fresh by exact Hk. rewrite IH.
      + rewrite (Hfg k v) by apply lookup_insert. reflexivity.
      + intros k' v' Hk'. apply (Hfg k'). rewrite lookup_insert_ne; [exact Hk'|]. intros ->. congruence.
  Qed.

  Lemma msum_fmap (f : V -> Z) (m : gmap K V) : msum f m = msum (fun z : Z => z) (f <$> m).
  Proof.
    induction m as [|k v m Hk IH] using map_ind.
    - rewrite fmap_empty, !msum_empty. reflexivity.
    - rewrite fmap_insert. rewrite !msum_insert_fresh; [|rewrite lookup_fmap, Hk; reflexivity|exact Hk].
      rewrite IH. reflexivity.
  Qed.

  Lemma msum_nonneg (f : V -> Z) (m : gmap K V) :
    (forall k v, m !! k = Some v -> 0 <= f v) -> 0 <= msum f m.
  Proof.
    induction m as [|k v m Hk IH] using map_ind; intros Hf.
    - rewrite msum_empty. lia.
    - rewrite msum_insert_fresh by exact Hk.
      assert (0 <= f v) by (apply (Hf k); apply lookup_insert).
      assert (0 <= msum f m); [|lia].
      apply IH. intros k' v' Hk'. apply (Hf k'). rewrite lookup_insert_ne; [exact Hk'|]. intros ->. congruence.
  Qed.

  Lemma msum_ge_elem (f : V -> Z) (m : gmap K V) k v :
    (forall k v, m !! k = Some v -> 0 <= f v) -> m !! k = Some v -> f v <= msum f m.
  Proof.
    intros Hf Hk. rewrite (msum_delete f m k v Hk).
    assert (0 <= msum f (delete k m)); [|lia].
    apply msum_nonneg. intros k' v' Hk'. apply lookup_delete_Some in Hk' as [_ Hk']. eapply Hf; eauto.
  Qed.
End msum_more.

(* an invariant through [rfold] over a duplicate-free list, with a side condition [Q] on the element
   being processed that every step keeps for the elements still to come *)
Lemma rfold_inv_queue {A S} (P : S -> Prop) (Q : S -> A -> Prop) (f : S -> A -> res S) l s s' :
  NoDup l ->
  (forall s x s', P s -> Q s x -> f s x = Ok s' -> P s' /\ forall y, y <> x -> Q s y -> Q s' y) ->
  P s -> (forall x, x ∈ l -> Q s x) -> rfold f l s = Ok s' -> P s'.
Proof.
  intros Hnd Hf. revert s. induction Hnd as [|x l Hx Hnd IH]; simpl; intros s Hs Hq H.
  - injection H as <-. exact Hs.
  - apply rbind_ok in H as (s1 & H1 & H2).
    destruct (Hf s x s1 Hs (Hq x ltac:(left)) H1) as [Hs1 Hq1].
    eapply IH; [exact Hs1| |exact H2]. intros y Hy. apply Hq1; [intros ->; contradiction|]. apply Hq. right. exact Hy.
Qed.
