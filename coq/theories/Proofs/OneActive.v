(* C08 (run level): at most one ACTIVE session per (subscription, address).  Invariant: an active
   session is the newest live session of its (subscription, address) pair.  MsgStart only creates a
   session when the newest one of the pair is not active (GetLatestSessionForAllocation), every other
   operation only moves statuses forward. *)
From Hub Require Import Base.Prelude Base.Arith Model.Types Model.Keeper Model.Handlers Model.Hooks Model.Step.
From Hub Require Import Proofs.Tactics Proofs.Effects Proofs.Frames Proofs.KeysInv Proofs.Lifecycle Proofs.IndexSess Proofs.Listing Proofs.IndexAll.

Definition one_act (s : state) : Prop :=
  forall i x j y, sessions s !! i = Some x -> sessions s !! j = Some y -> ss_status x = SActive ->
                  ss_sub x = ss_sub y -> ss_addr x = ss_addr y -> j <= i.

Lemma one_act_evo s s' : sess_evo s s' -> one_act s -> one_act s'.
Proof.
  intros [_ E] H i x' j y' Hx Hy Hact E1 E2.
  destruct (E _ _ Hx) as (x & Hx0 & (_ & S1 & _ & S2 & F)). destruct (E _ _ Hy) as (y & Hy0 & (_ & T1 & _ & T2 & _)).
  apply (H i x j y Hx0 Hy0); [destruct F as [F|[F1 F2]]; congruence|congruence|congruence].
Qed.

Lemma one_act_frame s s' : sessions s' = sessions s -> one_act s -> one_act s'.
Proof. unfold one_act. intros ->. auto. Qed.

Lemma one_act_start s from id nd s' :
  kinv_sess s -> idx_sess s -> one_act s -> h_sess_start s from id nd = Ok s' -> one_act s'.
Proof.
  intros Hk Hix Hone H.
  destruct (h_sess_start_effect _ _ _ _ _ H) as (sb & n & latest & _ & _ & _ & _ & Hl & Hnl & _ & _ & ->).
  pose proof (latest_session_for_alloc_ok s Hix id (ta_bytes from) Hk) as L. rewrite Hl in L.
  set (n0 := sess_count s + 1).
  (* no active session of the pair (id, from) in s *)
  assert (Hno : forall k z, sessions s !! k = Some z -> ss_sub z = id -> ss_addr z = ta_bytes from -> ss_status z <> SActive).
  { intros k z Hz Z1 Z2 Zact. destruct latest as [w|].
    - destruct L as (W1 & W2 & Hw & Wmax). specialize (Hnl _ eq_refl).
      pose proof (Wmax _ _ Hz Z1 Z2) as Hle1.
      pose proof (Hone k z (ss_id w) w Hz Hw Zact ltac:(congruence) ltac:(congruence)) as Hle2.
      assert (k = ss_id w) by lia. subst k. rewrite Hw in Hz. injection Hz as <-. contradiction.
    - apply (L _ _ Hz). auto. }
  intros i x j y Hx Hy Hact E1 E2. simpl in Hx, Hy. fold n0 in Hx, Hy.
  destruct (decide (i = n0)) as [->|Hi]; destruct (decide (j = n0)) as [->|Hj].
  - lia.
  - rewrite lookup_insert_ne in Hy by congruence. destruct (k_ss _ Hk _ _ Hy) as (_ & ? & _). unfold n0. lia.
  - rewrite lookup_insert_ne in Hx by congruence. rewrite lookup_insert in Hy. injection Hy as <-. simpl in E1, E2.
    exfalso. exact (Hno _ _ Hx E1 E2 Hact).
  - rewrite lookup_insert_ne in Hx, Hy by congruence. eapply Hone; eauto.
Qed.

Theorem one_act_step s o s' : kinv s -> idx_sess s -> one_act s -> step s o = OOk s' -> one_act s'.
Proof.
  intros Hi Hix Hone Hstep.
  destruct (evo_step_cause _ _ _ Hi Hstep) as [_ [E|(_ & f & i & n & ->)]]; [eapply one_act_evo; eauto|].
  apply step_inv in Hstep as [_ H]. simpl in H.
  eapply one_act_start; [| | |exact H].
  - eapply kinv_sess_frame; [..|apply (ki_sess _ Hi)]; reflexivity.
  - eapply idx_sess_frame; [..|exact Hix]; reflexivity.
  - eapply one_act_frame; [|exact Hone]. reflexivity.
Qed.

Lemma one_act_init g : one_act (init g).
Proof.
  intros i x j y Hx. destruct (keeps_sess _ _ _ (init_keeps g) eq_refl) as (_ & E & _). rewrite E in Hx. simpl in Hx. rewrite lookup_empty in Hx. discriminate.
Qed.

Theorem one_act_run ops : forall s i s', all_idx s -> one_act s -> run_from s ops i = RunOk s' -> one_act s'.
Proof.
  intros s i s' Hall Hone H. refine (proj2 (run_from_inv (fun x => all_idx x /\ one_act x) ops s i s' _ _ (conj Hall Hone) H)).
  - intros x o x' [Ax Ox] E. split; [eapply all_idx_step; eauto|exact (one_act_step _ _ _ (ai_k _ Ax) (ai_sess _ Ax) Ox E)].
  - intros x [Ax Ox]. split; [apply all_idx_clear; exact Ax|eapply one_act_frame; [|exact Ox]; reflexivity].
Qed.

(* at most one active session per (subscription, address), in every reachable state *)
Theorem one_active_session g ops s' x y :
  run (init g) ops = RunOk s' -> sessions s' !! ss_id x = Some x -> sessions s' !! ss_id y = Some y ->
  ss_status x = SActive -> ss_status y = SActive -> ss_sub x = ss_sub y -> ss_addr x = ss_addr y -> ss_id x = ss_id y.
Proof.
  intros H Hx Hy Ax Ay E1 E2.
  pose proof (one_act_run ops (init g) 0%nat s' (all_idx_init g) (one_act_init g) H) as Hone.
  pose proof (Hone _ _ _ _ Hx Hy Ax E1 E2). pose proof (Hone _ _ _ _ Hy Hx Ay (eq_sym E1) (eq_sym E2)). lia.
Qed.
