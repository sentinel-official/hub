(* C10 on the model side: the transition function is a function of (state, operation)
   only, and every ordered iteration of the model (deadline queues, listings) is
   canonical: it depends only on the SET of entries, not on the order in which a
   finite-set/finite-map representation happens to enumerate them. *)
From Hub Require Import Base.Prelude Base.Arith Model.Types Model.Keeper Model.Handlers Model.Hooks Model.Step.
From Hub Require Import Proofs.Sorting.

(** * total orders given by comparison functions *)

Class OrderCmp {A} (c : A -> A -> comparison) := {
  oc_opp : forall x y, c x y = CompOpp (c y x);
  oc_eq : forall x y, c x y = Eq -> x = y;
  oc_trans : forall x y z, c x y <> Gt -> c y z <> Gt -> c x z <> Gt }.

#[export] Instance order_good {A} (c : A -> A -> comparison) `{!OrderCmp c} : GoodCmp c.
Proof.
  split.
  - intros x y H. rewrite oc_opp, H. discriminate.
  - apply oc_trans.
Qed.

#[export] Instance order_antisym {A} (c : A -> A -> comparison) `{!OrderCmp c} : AntiSymm (=) (cmp_le c).
Proof.
  intros x y H1 H2. unfold cmp_le in *. apply (oc_eq (c := c)).
  rewrite oc_opp in H2. destruct (c x y); [reflexivity|exfalso; apply H2; reflexivity|congruence].
Qed.

(* sorting is canonical: any two enumerations of the same entries sort to the same list *)
Theorem sort_by_canonical {A} (c : A -> A -> comparison) `{!OrderCmp c} (l1 l2 : list A) :
  l1 ≡ₚ l2 -> sort_by c l1 = sort_by c l2.
Proof.
  intros Hp. apply (StronglySorted_unique (cmp_le c)).
  - apply sort_by_sorted, _.
  - apply sort_by_sorted, _.
  - rewrite !sort_by_perm. exact Hp.
Qed.

(** * the orders used by the model *)

#[export] Instance order_Z : OrderCmp Z.compare.
Proof.
  split.
  - intros x y. apply Z.compare_antisym.
  - intros x y. apply Z.compare_eq.
  - intros x y z H1 H2 H3. rewrite Z.compare_le_iff in H1, H2. rewrite Z.compare_gt_iff in H3. lia.
Qed.

Lemma lex_cases {A B} (ca : A -> A -> comparison) (cb : B -> B -> comparison) x y :
  lex ca cb x y = match ca x.1 y.1 with Eq => cb x.2 y.2 | c => c end.
Proof. reflexivity. Qed.

#[export] Instance order_lex {A B} (ca : A -> A -> comparison) (cb : B -> B -> comparison)
  `{!OrderCmp ca} `{!OrderCmp cb} : OrderCmp (lex ca cb).
Proof.
  split.
  - intros [a1 b1] [a2 b2]. unfold lex. simpl. rewrite (oc_opp (c := ca) a1 a2).
    destruct (ca a2 a1); simpl; [apply oc_opp|reflexivity|reflexivity].
  - intros [a1 b1] [a2 b2]. unfold lex. simpl. destruct (ca a1 a2) eqn:E; try discriminate.
    intros H. apply oc_eq in E. apply oc_eq in H. congruence.
  - intros [a1 b1] [a2 b2] [a3 b3]. unfold lex. simpl. intros H1 H2.
    destruct (ca a1 a2) eqn:E12; [|clear H1|congruence].
    + apply oc_eq in E12. subst a2. destruct (ca a1 a3) eqn:E13; [|discriminate|exact H2].
      eapply oc_trans; eauto.
    + destruct (ca a2 a3) eqn:E23; [|clear H2|congruence].
      * apply oc_eq in E23. subst a3. rewrite E12. discriminate.
      * assert (Hne : ca a1 a3 <> Gt) by (eapply oc_trans; [rewrite E12|rewrite E23]; discriminate).
        destruct (ca a1 a3) eqn:E13; [|discriminate|congruence].
        apply oc_eq in E13. subst a3. rewrite oc_opp, E12 in E23. discriminate.
Qed.

Lemma bytes_cmp_opp a : forall b, bytes_cmp a b = CompOpp (bytes_cmp b a).
Proof.
  induction a as [|x a IH]; intros [|y b]; simpl; try reflexivity.
  rewrite (N.compare_antisym y x). destruct (y ?= x)%N; simpl; auto.
Qed.
Lemma bytes_cmp_eq a : forall b, bytes_cmp a b = Eq -> a = b.
Proof.
  induction a as [|x a IH]; intros [|y b]; simpl; try discriminate; auto.
  destruct (x ?= y)%N eqn:E; try discriminate. intros H. apply N.compare_eq in E. f_equal; auto.
Qed.
Lemma bytes_cmp_trans a : forall b c, bytes_cmp a b <> Gt -> bytes_cmp b c <> Gt -> bytes_cmp a c <> Gt.
Proof.
  induction a as [|x a IH]; intros [|y b] [|z c]; simpl; try congruence.
  destruct (x ?= y)%N eqn:E1; destruct (y ?= z)%N eqn:E2; try congruence; intros H1 H2.
  - apply N.compare_eq in E1, E2. subst. rewrite N.compare_refl. eauto.
  - apply N.compare_eq in E1. subst. rewrite E2. discriminate.
  - apply N.compare_eq in E2. subst. rewrite E1. discriminate.
  - rewrite N.compare_lt_iff in E1, E2. assert ((x ?= z)%N = Lt) as -> by (apply N.compare_lt_iff; lia). discriminate.
Qed.
#[export] Instance order_bytes : OrderCmp bytes_cmp.
Proof. split; [apply bytes_cmp_opp|apply bytes_cmp_eq|apply bytes_cmp_trans]. Qed.

#[export] Instance order_addr : OrderCmp addr_cmp.
Proof.
  split.
  - intros x y. unfold addr_cmp. rewrite (Nat.compare_antisym (length y) (length x)).
    destruct (length y ?= length x)%nat; simpl; [apply bytes_cmp_opp|reflexivity|reflexivity].
  - intros x y. unfold addr_cmp. destruct (length x ?= length y)%nat; try discriminate. apply bytes_cmp_eq.
  - intros x y z. unfold addr_cmp.
    destruct (length x ?= length y)%nat eqn:E1; destruct (length y ?= length z)%nat eqn:E2; try congruence; intros H1 H2.
    + apply Nat.compare_eq in E1, E2. rewrite E1, E2, Nat.compare_refl. eapply bytes_cmp_trans; eauto.
    + apply Nat.compare_eq in E1. rewrite E1, E2. discriminate.
    + apply Nat.compare_eq in E2. rewrite <- E2, E1. discriminate.
    + rewrite Nat.compare_lt_iff in E1, E2. assert ((length x ?= length z)%nat = Lt) as -> by (apply Nat.compare_lt_iff; lia). discriminate.
Qed.

#[export] Instance order_tz : OrderCmp cmp_tz := order_lex _ _.
#[export] Instance order_ta : OrderCmp cmp_ta := order_lex _ _.
#[export] Instance order_az : OrderCmp cmp_az := order_lex _ _.
#[export] Instance order_zz : OrderCmp cmp_zz := order_lex _ _.
#[export] Instance order_za : OrderCmp cmp_za := order_lex _ _.

(** * consequences for the block hooks *)

(* the scan of a deadline queue is determined by the set of its entries *)
Theorem due_z_canonical (q : gset (time * Z)) (t : time) (l : list (time * Z)) :
  l ≡ₚ elements q -> filter (fun e => e.1 <= t) (sort_by cmp_tz l) = due_z q t.
Proof. intros Hp. unfold due_z. f_equal. apply sort_by_canonical; [apply _|exact Hp]. Qed.

Theorem due_a_canonical (q : gset (time * addr)) (t : time) (l : list (time * addr)) :
  l ≡ₚ elements q -> filter (fun e => e.1 <= t) (sort_by cmp_ta l) = due_a q t.
Proof. intros Hp. unfold due_a. f_equal. apply sort_by_canonical; [apply _|exact Hp]. Qed.

(* and it is chronological: timestamps never decrease along the scan, ties by identifier *)
Lemma StronglySorted_filter {A} (R : relation A) (P : A -> Prop) `{forall x, Decision (P x)} (l : list A) :
  StronglySorted R l -> StronglySorted R (filter P l).
Proof.
  induction 1 as [|x l Hs IH Hall]; [constructor|].
  destruct (decide (P x)) as [Hx|Hx].
  - rewrite filter_cons_True by exact Hx. constructor; [exact IH|].
    apply Forall_forall. intros y Hy. apply elem_of_list_filter in Hy as [_ Hy]. rewrite Forall_forall in Hall. auto.
  - rewrite filter_cons_False by exact Hx. exact IH.
Qed.

Theorem due_z_sorted q t : StronglySorted (cmp_le cmp_tz) (due_z q t).
Proof. unfold due_z. apply StronglySorted_filter, sort_by_sorted, _. Qed.
Theorem due_a_sorted q t : StronglySorted (cmp_le cmp_ta) (due_a q t).
Proof. unfold due_a. apply StronglySorted_filter, sort_by_sorted, _. Qed.

Lemma cmp_tz_le_time (x y : time * Z) : cmp_le cmp_tz x y -> x.1 <= y.1.
Proof.
  destruct x as [t1 i1], y as [t2 i2]. unfold cmp_le, cmp_tz, lex. simpl. intros H.
  destruct (Z.compare_spec t1 t2) as [E|E|E]; [lia|lia|]. exfalso. apply H. reflexivity.
Qed.

(* the transition function and the run of a history are functions *)
Theorem step_deterministic s o r1 r2 : step s o = r1 -> step s o = r2 -> r1 = r2.
Proof. congruence. Qed.
Theorem run_deterministic s ops r1 r2 : run s ops = r1 -> run s ops = r2 -> r1 = r2.
Proof. congruence. Qed.

(* running a history is running its first part and then, from the state reached, the rest; a halt in the
   first part is the result *)
Theorem run_prefix_deterministic ops1 : forall ops2 s i,
  run_from s (ops1 ++ ops2) i =
  match run_from s ops1 i with
  | RunOk s1 => run_from s1 ops2 (i + length ops1)
  | h => h
  end.
Proof.
  induction ops1 as [|o ops1 IH]; intros ops2 s i; simpl.
  - f_equal. lia.
  - destruct (step s o); [rewrite IH; destruct (run_from _ ops1 _); try reflexivity; f_equal; lia
                         |rewrite IH; destruct (run_from _ ops1 _); try reflexivity; f_equal; lia|reflexivity].
Qed.
