(* Frame lemmas: which groups of state fields each function of the model can
   touch.  [keeps T s s'] says that every field outside the groups listed in T
   (and the static configuration) is the same in s and s'. *)
From Hub Require Import Base.Prelude Base.Arith Model.Types Model.Keeper Model.Handlers Model.Hooks Model.Step.
From Hub Require Import Proofs.Tactics Proofs.Effects.

Inductive grp := GBank | GDep | GSupply | GPv | GPl | GNode | GSub | GSess | GPar | GSwap | GMint | GNow.
Definition grp_eqb (a b : grp) : bool :=
  match a, b with
  | GBank, GBank | GDep, GDep | GSupply, GSupply | GPv, GPv | GPl, GPl | GNode, GNode | GSub, GSub
  | GSess, GSess | GPar, GPar | GSwap, GSwap | GMint, GMint | GNow, GNow => true
  | _, _ => false
  end.
Definition touched (g : grp) (T : list grp) : bool := existsb (grp_eqb g) T.
Definition unless (b : bool) (P : Prop) : Prop := if b then True else P.

Definition keeps (T : list grp) (s s' : state) : Prop :=
  cfg s' = cfg s /\
  unless (touched GBank T) (bank s' = bank s) /\
  unless (touched GDep T) (deposits s' = deposits s) /\
  unless (touched GSupply T) (supply s' = supply s) /\
  unless (touched GPv T) (prov_act s' = prov_act s /\ prov_inact s' = prov_inact s) /\
  unless (touched GPl T) (plan_act s' = plan_act s /\ plan_inact s' = plan_inact s /\ plan_count s' = plan_count s /\
                          plan_prov s' = plan_prov s /\ node_plan s' = node_plan s) /\
  unless (touched GNode T) (node_act s' = node_act s /\ node_inact s' = node_inact s /\ node_q s' = node_q s) /\
  unless (touched GSub T) (sub_count s' = sub_count s /\ subs s' = subs s /\ sub_q s' = sub_q s /\ sub_acc s' = sub_acc s /\
                           sub_node s' = sub_node s /\ sub_plan s' = sub_plan s /\ allocs s' = allocs s /\
                           payouts s' = payouts s /\ pay_q s' = pay_q s /\ pay_acc s' = pay_acc s /\
                           pay_node s' = pay_node s /\ pay_acc_node s' = pay_acc_node s) /\
  unless (touched GSess T) (sess_count s' = sess_count s /\ sessions s' = sessions s /\ sess_q s' = sess_q s /\
                            sess_acc s' = sess_acc s /\ sess_node s' = sess_node s /\ sess_sub s' = sess_sub s /\
                            sess_alloc s' = sess_alloc s) /\
  unless (touched GPar T) (pars s' = pars s /\ modified s' = modified s) /\
  unless (touched GSwap T) (swaps s' = swaps s) /\
  unless (touched GMint T) (inflations s' = inflations s /\ mint_max s' = mint_max s /\ mint_min s' = mint_min s /\
                            mint_rate s' = mint_rate s /\ mint_inflation s' = mint_inflation s) /\
  unless (touched GNow T) (now s' = now s).

Lemma unless_intro (b : bool) (P : Prop) : P -> unless b P.
Proof. destruct b; simpl; auto. Qed.

Lemma unless_elim (b : bool) (P : Prop) : unless b P -> b = false -> P.
Proof. intros H ->. exact H. Qed.

Lemma keeps_refl T s : keeps T s s.
Proof.
  unfold keeps. repeat (split; [first [reflexivity | apply unless_intro; repeat split; reflexivity]|]).
  apply unless_intro; reflexivity.
Qed.

Lemma keeps_trans T a b c : keeps T a b -> keeps T b c -> keeps T a c.
Proof.
  unfold keeps. intros (A0 & A1 & A2 & A3 & A4 & A5 & A6 & A7 & A8 & A9 & A10 & A11 & A12)
                       (B0 & B1 & B2 & B3 & B4 & B5 & B6 & B7 & B8 & B9 & B10 & B11 & B12).
  split; [congruence|].
  repeat match goal with |- _ /\ _ => split end;
    match goal with |- unless ?b _ => destruct b; [exact I|cbn [unless] in *; intuition congruence] end.
Qed.

Lemma keeps_cfg T s s' : keeps T s s' -> cfg s' = cfg s.
Proof. intros K. apply K. Qed.
Lemma keeps_bank T s s' : keeps T s s' -> touched GBank T = false -> bank s' = bank s.
Proof. intros K. apply unless_elim, K. Qed.
Lemma keeps_dep T s s' : keeps T s s' -> touched GDep T = false -> deposits s' = deposits s.
Proof. intros K. apply unless_elim, K. Qed.
Lemma keeps_supply T s s' : keeps T s s' -> touched GSupply T = false -> supply s' = supply s.
Proof. intros K. apply unless_elim, K. Qed.
Lemma keeps_pv T s s' : keeps T s s' -> touched GPv T = false -> prov_act s' = prov_act s /\ prov_inact s' = prov_inact s.
Proof. intros K. apply unless_elim, K. Qed.
Lemma keeps_plan T s s' : keeps T s s' -> touched GPl T = false ->
  plan_act s' = plan_act s /\ plan_inact s' = plan_inact s /\ plan_count s' = plan_count s /\
  plan_prov s' = plan_prov s /\ node_plan s' = node_plan s.
Proof. intros K. apply unless_elim, K. Qed.
Lemma keeps_node T s s' : keeps T s s' -> touched GNode T = false ->
  node_act s' = node_act s /\ node_inact s' = node_inact s /\ node_q s' = node_q s.
Proof. intros K. apply unless_elim, K. Qed.
Lemma keeps_sub T s s' : keeps T s s' -> touched GSub T = false ->
  sub_count s' = sub_count s /\ subs s' = subs s /\ sub_q s' = sub_q s /\ sub_acc s' = sub_acc s /\
  sub_node s' = sub_node s /\ sub_plan s' = sub_plan s /\ allocs s' = allocs s /\
  payouts s' = payouts s /\ pay_q s' = pay_q s /\ pay_acc s' = pay_acc s /\
  pay_node s' = pay_node s /\ pay_acc_node s' = pay_acc_node s.
Proof. intros K. apply unless_elim, K. Qed.
Lemma keeps_sess T s s' : keeps T s s' -> touched GSess T = false ->
  sess_count s' = sess_count s /\ sessions s' = sessions s /\ sess_q s' = sess_q s /\
  sess_acc s' = sess_acc s /\ sess_node s' = sess_node s /\ sess_sub s' = sess_sub s /\
  sess_alloc s' = sess_alloc s.
Proof. intros K. apply unless_elim, K. Qed.
Lemma keeps_par T s s' : keeps T s s' -> touched GPar T = false -> pars s' = pars s /\ modified s' = modified s.
Proof. intros K. apply unless_elim, K. Qed.
Lemma keeps_swap T s s' : keeps T s s' -> touched GSwap T = false -> swaps s' = swaps s.
Proof. intros K. apply unless_elim, K. Qed.
Lemma keeps_mint T s s' : keeps T s s' -> touched GMint T = false ->
  inflations s' = inflations s /\ mint_max s' = mint_max s /\ mint_min s' = mint_min s /\
  mint_rate s' = mint_rate s /\ mint_inflation s' = mint_inflation s.
Proof. intros K. apply unless_elim, K. Qed.
Lemma keeps_now T s s' : keeps T s s' -> touched GNow T = false -> now s' = now s.
Proof. intros K. apply unless_elim, K. Qed.

(** * widening the set of touched groups *)

Lemma unless_weaken (b b' : bool) (P : Prop) : (b = true -> b' = true) -> unless b P -> unless b' P.
Proof. destruct b, b'; simpl; intuition discriminate. Qed.

Lemma keeps_weaken T T' s s' :
  (forall g, touched g T = true -> touched g T' = true) -> keeps T s s' -> keeps T' s s'.
Proof.
  intros Hsub. unfold keeps.
  intros (A0 & A1 & A2 & A3 & A4 & A5 & A6 & A7 & A8 & A9 & A10 & A11 & A12).
  split; [exact A0|].
  repeat (split; [eapply unless_weaken; [apply Hsub|eassumption]|]).
  eapply unless_weaken; [apply Hsub|eassumption].
Qed.

Ltac weaken_to H := eapply keeps_weaken; [|exact H]; intros []; cbn; first [reflexivity | discriminate | solve [auto]].

(* [keeps T s s'] for concrete T and an [s'] that is, up to computation, [s] with fields of the groups in T
   rewritten: every conjunct is [True] or an equation that holds by conversion.  [s'] is named first: each
   [conj] of the proof carries its type, and a large term copied into forty of them is what makes such a
   proof slow to check. *)
Ltac keeps_conv :=
  match goal with |- keeps _ _ ?t => let t0 := fresh "t" in set (t0 := t) end; unfold keeps; repeat split; reflexivity.

(* the same, after following frame facts of the context (each widened to T) that start at [s] or at an
   update of [s] *)
Ltac keeps_chain :=
  first [ keeps_conv
        | match goal with
          | H : keeps _ ?a _ |- keeps _ ?a _ => eapply keeps_trans; [weaken_to H|]; clear H; keeps_chain
          | H : keeps _ ?b _ |- keeps _ ?a _ =>
              eapply (keeps_trans _ a b); [keeps_conv|]; eapply keeps_trans; [weaken_to H|]; clear H; keeps_chain
          end ].

(* unfold to plain equalities, for concrete T *)
Ltac keeps_unfold := unfold keeps, unless, touched in *; cbn [existsb grp_eqb orb] in *.
Ltac goal_cases := repeat match goal with |- context [if ?b then _ else _] => destruct b eqn:? end.

(* An equation [f s' = t] between fields: follow the frame facts of the context backwards from [s'],
   through the projection of the group of [f], until the two sides are convertible. *)
Ltac keeps_field :=
  first [ reflexivity
        | match goal with
          | H : keeps ?T ?a ?b |- _ ?b = _ =>
              etransitivity;
              [ first [ apply (keeps_sub T a b H eq_refl) | apply (keeps_sess T a b H eq_refl)
                      | apply (keeps_node T a b H eq_refl) | apply (keeps_plan T a b H eq_refl)
                      | apply (keeps_pv T a b H eq_refl) | apply (keeps_bank T a b H eq_refl)
                      | apply (keeps_dep T a b H eq_refl) | apply (keeps_supply T a b H eq_refl)
                      | apply (keeps_par T a b H eq_refl) | apply (keeps_now T a b H eq_refl)
                      | apply (keeps_mint T a b H eq_refl) | apply (keeps_swap T a b H eq_refl)
                      | apply (keeps_cfg T a b H) ]
              | keeps_field ]
          end ].

(* Frame goals go along the chain, field equations through the projections; the last resort is a
   search over the unfolded frame facts. *)
Ltac keeps_solve :=
  lazymatch goal with
  | |- keeps _ _ _ => first [ solve [keeps_chain] | goal_cases; solve [keeps_chain] | idtac ]
  | |- _ = _ => first [ solve [keeps_field] | solve [symmetry; keeps_field] | idtac ]
  | |- _ => idtac
  end;
  goal_cases; keeps_unfold; simpl in *; intuition (try congruence).

(** * primitives *)

Lemma emit_keeps e s : keeps [] s (emit e s).
Proof. keeps_chain. Qed.

Lemma set_bal_keeps s a d v : keeps [GBank] s (set_bal s a d v).
Proof. keeps_chain. Qed.

Lemma bank_send_keeps s f t d a s' : bank_send s f t d a = Ok s' -> keeps [GBank] s s'.
Proof. unfold bank_send. intros H. repeat case_match; try discriminate; injection H as <-; keeps_chain. Qed.

Lemma bank_send_to_account_keeps s f t d a s' : bank_send_to_account s f t d a = Ok s' -> keeps [GBank] s s'.
Proof. unfold bank_send_to_account. case_match; [discriminate|]. apply bank_send_keeps. Qed.

Lemma bank_mint_keeps s m d a s' : bank_mint s m d a = Ok s' -> keeps [GBank; GSupply] s s'.
Proof. unfold bank_mint. intros H. case_match; try discriminate; injection H as <-; keeps_chain. Qed.

Lemma dep_store_keeps s a c : keeps [GDep] s (dep_store s a c).
Proof. unfold dep_store. case_match; keeps_chain. Qed.

Lemma dep_add_keeps s a d v s' : dep_add s a d v = Ok s' -> keeps [GBank; GDep] s s'.
Proof.
  unfold dep_add. intros H. apply rbind_ok in H as (s1 & H1 & [= <-]). apply bank_send_keeps in H1. keeps_chain.
Qed.

Lemma dep_to_account_keeps s f t d v s' : dep_to_account s f t d v = Ok s' -> keeps [GBank; GDep] s s'.
Proof.
  unfold dep_to_account. intros H. apply rbind_ok in H as (dep & _ & H). apply rbind_ok in H as (s1 & H1 & [= <-]).
  apply bank_send_to_account_keeps in H1. pose proof (dep_store_keeps s1 f dep). keeps_chain.
Qed.

Lemma dep_to_module_keeps s f t d v s' : dep_to_module s f t d v = Ok s' -> keeps [GBank; GDep] s s'.
Proof.
  unfold dep_to_module. intros H. apply rbind_ok in H as (dep & _ & H). apply rbind_ok in H as (s1 & H1 & [= <-]).
  apply bank_send_keeps in H1. pose proof (dep_store_keeps s1 f dep). keeps_chain.
Qed.

Lemma z_send_keeps s f t c s' : z_send s f t c = Ok s' -> keeps [GBank] s s'.
Proof. unfold z_send. case_match; [intros [= <-]; apply keeps_refl|apply bank_send_keeps]. Qed.
Lemma fund_pool_keeps s f c s' : fund_pool s f c = Ok s' -> keeps [GBank] s s'.
Proof. unfold fund_pool. case_match; [intros [= <-]; apply keeps_refl|apply bank_send_keeps]. Qed.
Lemma z_dep_add_keeps s a c s' : z_dep_add s a c = Ok s' -> keeps [GBank; GDep] s s'.
Proof. unfold z_dep_add. case_match; [intros [= <-]; apply keeps_refl|apply dep_add_keeps]. Qed.
Lemma z_dep_to_account_keeps s f t c s' : z_dep_to_account s f t c = Ok s' -> keeps [GBank; GDep] s s'.
Proof. unfold z_dep_to_account. case_match; [intros [= <-]; apply keeps_refl|apply dep_to_account_keeps]. Qed.
Lemma z_dep_to_module_keeps s f t c s' : z_dep_to_module s f t c = Ok s' -> keeps [GBank; GDep] s s'.
Proof. unfold z_dep_to_module. case_match; [intros [= <-]; apply keeps_refl|apply dep_to_module_keeps]. Qed.

Lemma set_provider_keeps s p s' : set_provider s p = Ok s' -> keeps [GPv] s s'.
Proof. unfold set_provider. intros H. case_match; try discriminate; injection H as <-; keeps_chain. Qed.
Lemma set_node_keeps s n s' : set_node s n = Ok s' -> keeps [GNode] s s'.
Proof. unfold set_node. intros H. case_match; try discriminate; injection H as <-; keeps_chain. Qed.
Lemma set_plan_keeps s p s' : set_plan s p = Ok s' -> keeps [GPl] s s'.
Proof. unfold set_plan. intros H. case_match; try discriminate; injection H as <-; keeps_chain. Qed.

(* collect the frame facts of every primitive call recorded in the context *)
Ltac pose_keeps :=
  repeat match goal with
  | H : bank_send _ _ _ _ _ = Ok _ |- _ => apply bank_send_keeps in H
  | H : bank_send_to_account _ _ _ _ _ = Ok _ |- _ => apply bank_send_to_account_keeps in H
  | H : bank_mint _ _ _ _ = Ok _ |- _ => apply bank_mint_keeps in H
  | H : dep_add _ _ _ _ = Ok _ |- _ => apply dep_add_keeps in H
  | H : dep_to_account _ _ _ _ _ = Ok _ |- _ => apply dep_to_account_keeps in H
  | H : dep_to_module _ _ _ _ _ = Ok _ |- _ => apply dep_to_module_keeps in H
  | H : z_send _ _ _ _ = Ok _ |- _ => apply z_send_keeps in H
  | H : fund_pool _ _ _ = Ok _ |- _ => apply fund_pool_keeps in H
  | H : z_dep_add _ _ _ = Ok _ |- _ => apply z_dep_add_keeps in H
  | H : z_dep_to_account _ _ _ _ = Ok _ |- _ => apply z_dep_to_account_keeps in H
  | H : z_dep_to_module _ _ _ _ = Ok _ |- _ => apply z_dep_to_module_keeps in H
  | H : set_provider _ _ = Ok _ |- _ => apply set_provider_keeps in H
  | H : set_node _ _ = Ok _ |- _ => apply set_node_keeps in H
  | H : set_plan _ _ = Ok _ |- _ => apply set_plan_keeps in H
  end.

Ltac frame_tac := intros; res_inv; pose_keeps; keeps_chain.

(** * handlers *)

Lemma h_prov_register_keeps s from n i w d s' :
  h_prov_register s from n i w d = Ok s' -> keeps [GBank; GPv] s s'.
Proof.
  intros H. apply h_prov_register_effect in H as (s1 & _ & H1 & ->). apply fund_pool_keeps in H1. keeps_chain.
Qed.

Lemma h_prov_update_keeps s from n i w d st s' :
  h_prov_update s from n i w d st = Ok s' -> keeps [GPv] s s'.
Proof.
  unfold h_prov_update. intros H. destruct (get_provider s _) as [p|]; [|discriminate].
  match type of H with (let '(s1, p2) := ?x in _) = _ => destruct x as [s1 p2] eqn:E end.
  apply rbind_ok in H as (s2 & H2 & [= <-]). apply set_provider_keeps in H2.
  assert (K : keeps [GPv] s s1) by (repeat case_bool_decide; injection E as <- <-; keeps_chain).
  keeps_chain.
Qed.

Lemma h_node_register_keeps s from gb hr url s' :
  h_node_register s from gb hr url = Ok s' -> keeps [GBank; GNode] s s'.
Proof.
  intros H. apply h_node_register_effect in H as (s1 & _ & _ & _ & H1 & ->). apply fund_pool_keeps in H1. keeps_chain.
Qed.

Lemma h_node_update_details_keeps s from gb hr url s' :
  h_node_update_details s from gb hr url = Ok s' -> keeps [GNode] s s'.
Proof. unfold h_node_update_details. frame_tac. Qed.

Lemma h_node_update_status_keeps s from st s' :
  h_node_update_status s from st = Ok s' -> keeps [GNode] s s'.
Proof. intros H. apply h_node_update_status_effect in H as (n & _ & _ & ->). keeps_conv. Qed.

Lemma create_sub_for_node_keeps s acc nd g h dn s' id :
  create_sub_for_node s acc nd g h dn = Ok (s', id) -> keeps [GBank; GDep; GSub] s s'.
Proof.
  intros H. apply create_sub_for_node_effect in H as (n & inact & dep & s1 & _ & _ & _ & H1 & _ & ->).
  apply z_dep_add_keeps in H1. keeps_chain.
Qed.

Lemma h_node_subscribe_keeps s from nd g h dn s' :
  h_node_subscribe s from nd g h dn = Ok s' -> keeps [GBank; GDep; GSub] s s'.
Proof.
  intros H. apply h_node_subscribe_effect in H as (s1 & id & _ & _ & H1 & ->). apply create_sub_for_node_keeps in H1. keeps_chain.
Qed.

Lemma h_plan_create_keeps s from du g pr s' : h_plan_create s from du g pr = Ok s' -> keeps [GPl] s s'.
Proof. unfold h_plan_create. frame_tac. Qed.

Lemma h_plan_update_status_keeps s from id st s' : h_plan_update_status s from id st = Ok s' -> keeps [GPl] s s'.
Proof.
  unfold h_plan_update_status. intros H. destruct (get_plan s id) as [p|]; [|discriminate].
  apply rbind_ok in H as (_ & _ & H). apply rbind_ok in H as (s3 & H3 & [= <-]). apply set_plan_keeps in H3.
  eapply keeps_trans; [|eapply keeps_trans; [exact H3|keeps_chain]].
  repeat case_bool_decide; keeps_chain.
Qed.

Lemma h_plan_link_keeps s from id nd s' : h_plan_link s from id nd = Ok s' -> keeps [GPl] s s'.
Proof. unfold h_plan_link. frame_tac. Qed.
Lemma h_plan_unlink_keeps s from id nd s' : h_plan_unlink s from id nd = Ok s' -> keeps [GPl] s s'.
Proof. unfold h_plan_unlink. frame_tac. Qed.

Lemma create_sub_for_plan_keeps s acc pid dn s' id :
  create_sub_for_plan s acc pid dn = Ok (s', id) -> keeps [GBank; GSub] s s'.
Proof.
  intros H. apply create_sub_for_plan_effect in H as (p & price & fee & s1 & s2 & _ & _ & _ & _ & _ & _ & H1 & H2 & _ & _ & ->).
  apply z_send_keeps in H1. apply z_send_keeps in H2. keeps_chain.
Qed.

Lemma h_plan_subscribe_keeps s from pid dn s' : h_plan_subscribe s from pid dn = Ok s' -> keeps [GBank; GSub] s s'.
Proof.
  intros H. apply h_plan_subscribe_effect in H as (s1 & id & H1 & ->). apply create_sub_for_plan_keeps in H1. keeps_chain.
Qed.

Lemma session_make_pending_keeps s x : keeps [GSess] s (session_make_pending s x).
Proof. keeps_chain. Qed.

Lemma sub_pending_hook_keeps s id s' : sub_pending_hook s id = Ok s' -> keeps [GSess] s s'.
Proof.
  unfold sub_pending_hook. apply rfold_rel.
  - apply keeps_refl.
  - apply keeps_trans.
  - intros a sid b H. res_inv; try apply keeps_refl. apply session_make_pending_keeps.
Qed.

Lemma detach_payout_keeps s sb m s' :
  (forall s'', m = Ok s'' -> keeps [GSub] s s'') -> detach_payout s sb m = Ok s' -> keeps [GSub] s s'.
Proof.
  intros Hm H. apply detach_payout_effect in H. destruct (payout_of s sb) as [[po|]|]; [subst; keeps_conv|auto|subst; apply keeps_refl].
Qed.

Lemma sub_make_pending_keeps s sb : keeps [GSub] s (sub_make_pending s sb).
Proof. keeps_chain. Qed.

Lemma h_sub_cancel_keeps s from id s' : h_sub_cancel s from id = Ok s' -> keeps [GSub; GSess] s s'.
Proof.
  intros H. apply h_sub_cancel_effect in H as (sb & s1 & _ & _ & _ & H1 & H).
  apply sub_pending_hook_keeps in H1. apply detach_payout_keeps in H; [|discriminate].
  pose proof (sub_make_pending_keeps s1 sb). keeps_chain.
Qed.

Lemma h_sub_allocate_keeps s from id to b s' : h_sub_allocate s from id to b = Ok s' -> keeps [GSub] s s'.
Proof.
  intros H. apply h_sub_allocate_effect in H as (sb & fal & H). cbv zeta in H.
  destruct H as (_ & _ & _ & _ & _ & _ & _ & _ & _ & ->). keeps_conv.
Qed.

Lemma h_sess_start_keeps s from id nd s' : h_sess_start s from id nd = Ok s' -> keeps [GSess] s s'.
Proof. intros H. apply h_sess_start_effect in H as (sb & n & latest & _ & _ & _ & _ & _ & _ & _ & _ & ->). keeps_conv. Qed.

Lemma h_sess_update_keeps s from id u d du ok s' : h_sess_update s from id u d du ok = Ok s' -> keeps [GSess] s s'.
Proof.
  intros H. apply h_sess_update_effect in H as (x & _ & _ & _ & _ & ->). keeps_conv.
Qed.

Lemma h_sess_end_keeps s from id s' : h_sess_end s from id = Ok s' -> keeps [GSess] s s'.
Proof.
  intros H. apply h_sess_end_effect in H as (x & _ & _ & _ & ->). keeps_conv.
Qed.

Lemma h_swap_keeps s from h r a s' : h_swap s from h r a = Ok s' -> keeps [GBank; GSupply; GSwap] s s'.
Proof.
  intros H. apply h_swap_effect in H as (s1 & s2 & H). cbv zeta in H. destruct H as (_ & _ & _ & _ & H1 & H2 & ->).
  apply bank_mint_keeps in H1. apply bank_send_to_account_keeps in H2. keeps_chain.
Qed.

Definition msg_groups (m : msg) : list grp :=
  match m with
  | MProvRegister _ _ _ _ _ _ => [GBank; GPv]
  | MProvUpdate _ _ _ _ _ _ _ => [GPv]
  | MNodeRegister _ _ _ _ _ => [GBank; GNode]
  | MNodeUpdateDetails _ _ _ _ _ | MNodeUpdateStatus _ _ => [GNode]
  | MNodeSubscribe _ _ _ _ _ => [GBank; GDep; GSub]
  | MPlanCreate _ _ _ _ | MPlanUpdateStatus _ _ _ | MPlanLink _ _ _ | MPlanUnlink _ _ _ => [GPl]
  | MPlanSubscribe _ _ _ => [GBank; GSub]
  | MSubCancel _ _ => [GSub; GSess]
  | MSubAllocate _ _ _ _ => [GSub]
  | MSessStart _ _ _ | MSessUpdate _ _ _ _ _ _ _ | MSessEnd _ _ _ => [GSess]
  | MSwap _ _ _ _ => [GBank; GSupply; GSwap]
  end.

Lemma handle_frame s m s' : handle s m = Ok s' -> keeps (msg_groups m) s s'.
Proof.
  destruct m; simpl.
  - apply h_prov_register_keeps.
  - apply h_prov_update_keeps.
  - apply h_node_register_keeps.
  - apply h_node_update_details_keeps.
  - apply h_node_update_status_keeps.
  - apply h_node_subscribe_keeps.
  - apply h_plan_create_keeps.
  - apply h_plan_update_status_keeps.
  - apply h_plan_link_keeps.
  - apply h_plan_unlink_keeps.
  - apply h_plan_subscribe_keeps.
  - apply h_sub_cancel_keeps.
  - apply h_sub_allocate_keeps.
  - apply h_sess_start_keeps.
  - apply h_sess_update_keeps.
  - apply h_sess_end_keeps.
  - apply h_swap_keeps.
Qed.

Definition ALL_TX : list grp := [GBank; GDep; GSupply; GPv; GPl; GNode; GSub; GSess; GSwap].

Lemma handle_keeps s m s' : handle s m = Ok s' -> keeps ALL_TX s s'.
Proof. intros H. apply handle_frame in H. destruct m; weaken_to H. Qed.

(** * hooks *)

Lemma mint_loop_keeps l : forall s s', mint_loop l s = Ok s' -> keeps [GMint] s s'.
Proof.
  induction l as [|it l IH]; intros s s' H; simpl in H.
  - injection H as <-. apply keeps_refl.
  - destruct (now s <? inf_ts it); [injection H as <-; apply keeps_refl|].
    apply rbind_ok in H as (_ & _ & H). apply IH in H. eapply keeps_trans; [|exact H]. keeps_chain.
Qed.

Lemma mint_begin_block_keeps s s' : mint_begin_block s = Ok s' -> keeps [GMint] s s'.
Proof. apply mint_loop_keeps. Qed.

Lemma payout_step_keeps s e s' : payout_step s e = Ok s' -> keeps [GBank; GDep; GSub] s s'.
Proof.
  intros H. apply payout_step_effect in H as (po & fee & s2 & s3 & _ & _ & _ & H2 & H3 & ->).
  apply z_dep_to_module_keeps in H2. apply z_dep_to_account_keeps in H3. keeps_chain.
Qed.

Lemma sub_begin_block_keeps s s' : sub_begin_block s = Ok s' -> keeps [GBank; GDep; GSub] s s'.
Proof.
  unfold sub_begin_block. apply rfold_rel; [apply keeps_refl|apply keeps_trans|].
  intros; eapply payout_step_keeps; eauto.
Qed.

Lemma node_sweep_one_keeps s n s' : node_sweep_one s n = Ok s' -> keeps [GNode] s s'.
Proof.
  unfold node_sweep_one. intros H. apply rbind_ok in H as (s1 & H1 & [= <-]). apply must_ok, set_node_keeps in H1. keeps_chain.
Qed.

Lemma node_expire_one_keeps s e s' : node_expire_one s e = Ok s' -> keeps [GNode] s s'.
Proof.
  unfold node_expire_one. intros H. destruct (get_node s e.2) as [n|]; [|discriminate].
  apply rbind_ok in H as (s2 & H2 & [= <-]). apply must_ok, set_node_keeps in H2.
  eapply keeps_trans; [|eapply keeps_trans; [exact H2|]]; keeps_chain.
Qed.

Lemma node_end_block_keeps s s' : node_end_block s = Ok s' -> keeps [GNode] s s'.
Proof.
  unfold node_end_block. intros H. apply rbind_ok in H as (s1 & H1 & H).
  eapply keeps_trans.
  - destruct (_ || _); [|injection H1 as <-; apply keeps_refl].
    eapply (rfold_rel (keeps [GNode])); [apply keeps_refl|apply keeps_trans|apply node_sweep_one_keeps|exact H1].
  - eapply (rfold_rel (keeps [GNode])); [apply keeps_refl|apply keeps_trans|apply node_expire_one_keeps|exact H].
Qed.

Lemma session_inactive_hook_keeps s sid acc nd b s' :
  session_inactive_hook s sid acc nd b = Ok s' -> keeps [GBank; GDep; GSub] s s'.
Proof.
  intros H. apply session_inactive_hook_effect in H as (x & sb & _ & _ & _ & H).
  destruct (sb_kind sb) as [? g h dep|]; [|destruct H as (al & _ & ->); keeps_conv].
  destruct (negb _); [subst; apply keeps_refl|]. destruct H as (al & _ & H). cbv zeta in H.
  destruct (g =? 0); [subst; keeps_conv|].
  destruct H as (prev & cur & fee & s2 & s3 & _ & _ & _ & _ & _ & _ & H2 & H3 & ->).
  apply z_dep_to_module_keeps in H2. apply z_dep_to_account_keeps in H3. keeps_chain.
Qed.

Lemma session_expire_one_keeps s e s' : session_expire_one s e = Ok s' -> keeps [GBank; GDep; GSub; GSess] s s'.
Proof.
  intros H. apply session_expire_one_effect in H as (x & _ & [[_ ->]|(_ & _ & s1 & H1 & ->)]); [keeps_conv|].
  apply session_inactive_hook_keeps in H1. keeps_chain.
Qed.

Lemma session_end_block_keeps s s' : session_end_block s = Ok s' -> keeps [GBank; GDep; GSub; GSess] s s'.
Proof.
  unfold session_end_block. apply rfold_rel; [apply keeps_refl|apply keeps_trans|apply session_expire_one_keeps].
Qed.

Lemma sub_refund_keeps s sb s' : sub_refund s sb = Ok s' -> keeps [GBank; GDep] s s'.
Proof.
  intros H. apply sub_refund_effect in H. destruct (sb_kind sb) as [? g h dep|]; [|subst; apply keeps_refl].
  assert (R : forall a b c t, refunded a sb b c t -> keeps [GBank; GDep] a t).
  { intros a b c t (_ & s0 & H0 & ->). apply z_dep_to_account_keeps in H0. keeps_chain. }
  destruct H as (s1 & H1 & H2). eapply keeps_trans.
  - destruct (g =? 0); [subst; apply keeps_refl|]. destruct H1 as (al & paid & _ & _ & _ & H1). exact (R _ _ _ _ H1).
  - destruct (h =? 0); [subst; apply keeps_refl|]. destruct H2 as (po & _ & H2). exact (R _ _ _ _ H2).
Qed.

Lemma sub_cleanup_keeps s sb : keeps [GSub] s (sub_cleanup s sb).
Proof.
  unfold sub_cleanup. case_match; [keeps_chain|].
  apply (fold_left_inv (keeps [GSub] s)); [|keeps_chain].
  intros x al Hx. eapply keeps_trans; [exact Hx|keeps_chain].
Qed.

Lemma sub_delete_payout_keeps s sb s' : sub_delete_payout s sb = Ok s' -> keeps [GSub] s s'.
Proof.
  intros H. apply sub_delete_payout_effect in H.
  destruct (payout_of s sb) as [[po|]|]; [subst; keeps_conv|contradiction|subst; apply keeps_refl].
Qed.

Lemma sub_expire_one_keeps s e s' : sub_expire_one s e = Ok s' -> keeps [GBank; GDep; GSub; GSess] s s'.
Proof.
  intros H. apply sub_expire_one_effect in H as (sb & _ & [(_ & s1 & H1 & H)|(_ & s1 & H1 & H)]).
  - apply sub_pending_hook_keeps in H1. apply detach_payout_keeps in H; [|discriminate].
    pose proof (sub_make_pending_keeps s1 sb). keeps_chain.
  - apply sub_refund_keeps in H1. apply sub_delete_payout_keeps in H.
    pose proof (sub_cleanup_keeps s1 sb). keeps_chain.
Qed.

Lemma sub_end_block_keeps s s' : sub_end_block s = Ok s' -> keeps [GBank; GDep; GSub; GSess] s s'.
Proof.
  unfold sub_end_block. apply rfold_rel; [apply keeps_refl|apply keeps_trans|apply sub_expire_one_keeps].
Qed.

Lemma begin_block_keeps s s' : begin_block s = Ok s' -> keeps [GBank; GDep; GSub; GMint] s s'.
Proof.
  intros H. apply begin_block_effect in H as (s1 & H1 & H).
  apply mint_begin_block_keeps in H1. apply sub_begin_block_keeps in H. keeps_chain.
Qed.

Lemma end_block_keeps s s' : end_block s = Ok s' -> keeps [GBank; GDep; GNode; GSub; GSess] s s'.
Proof.
  intros H. apply end_block_effect in H as (s1 & s2 & H1 & H2 & H).
  apply node_end_block_keeps in H1. apply session_end_block_keeps in H2. apply sub_end_block_keeps in H. keeps_chain.
Qed.

Lemma apply_pchange_keeps s c : keeps [GPar] s (apply_pchange s c).
Proof. destruct c; keeps_chain. Qed.

(* genesis: the balances fold writes bank and supply; every store of the hub starts empty *)
Lemma init_keeps g : keeps [GBank; GSupply; GMint; GNow] (empty_state (g_cfg g) (g_params g)) (init g).
Proof.
  unfold init. destruct (g_mint g) as [[[mx mn] rc] inf]. cbv beta iota zeta.
  set (s0 := empty_state (g_cfg g) (g_params g)).
  match goal with |- context [fold_left ?f ?l s0] => set (s1 := fold_left f l s0) end.
  apply (keeps_trans _ _ s1).
  - apply (fold_left_inv (keeps [GBank; GSupply; GMint; GNow] s0)); [|apply keeps_refl].
    intros x [a [d v]] Hx. eapply keeps_trans; [exact Hx|keeps_conv].
  - keeps_conv.
Qed.
Lemma init_inflations g : inflations (init g) = list_to_map (map (fun i => (inf_ts i, i)) (g_inflations g)).
Proof. unfold init. destruct (g_mint g) as [[[mx mn] rc] inf]. reflexivity. Qed.

(* an accepted governance operation passed every per-key validator *)
Lemma step_gov_ok s cs s' :
  step s (OGov cs) = OOk s' -> forallb pchange_valid cs = true /\ s' = fold_left apply_pchange cs (clear_events s).
Proof. exact (step_inv s (OGov cs) s'). Qed.

(* the static configuration never changes *)
Lemma step_cfg s o s' : step s o = OOk s' -> cfg s' = cfg s.
Proof.
  intros H. apply step_inv in H. destruct o.
  - exact (keeps_cfg _ _ _ (begin_block_keeps _ _ H)).
  - destruct H as [_ H]. exact (keeps_cfg _ _ _ (handle_keeps _ _ _ H)).
  - destruct H as [_ ->]. apply (fold_left_inv (fun x => cfg x = cfg s)); [|reflexivity].
    intros x c Hx. rewrite <- Hx. exact (keeps_cfg _ _ _ (apply_pchange_keeps x c)).
  - destruct H as (s1 & H & ->). exact (keeps_cfg _ _ _ (end_block_keeps _ _ H)).
Qed.

Lemma keeps_clear s : keeps [] s (clear_events s).
Proof. keeps_conv. Qed.

Lemma keeps_begin s t : keeps [GNow] s (clear_events s <| now := t |>).
Proof. keeps_conv. Qed.
