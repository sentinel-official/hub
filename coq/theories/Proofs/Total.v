(* C03: the block hooks cannot panic.  For every panic site of the hooks (queue entry without
   record, missing payout / allocation, refused escrow transfer, blocked recipient, negative coin,
   256-bit / 315-bit overflow, unknown status) the invariants exclude it. *)
From Hub Require Import Base.Prelude Base.Arith Model.Types Model.Keeper Model.Handlers Model.Hooks Model.Step.
From Hub Require Import Proofs.Tactics Proofs.Sorting Proofs.Frames Proofs.Money Proofs.KeysInv Proofs.ArithThm Proofs.Quota Proofs.Pricing
  Proofs.IndexSess Proofs.IndexNode Proofs.InvDefs Proofs.IndexSub Proofs.Listing Proofs.IndexSub2 Proofs.IndexPlan Proofs.IndexAll Proofs.Link
  Proofs.Ledger1 Proofs.Ledger2 Proofs.Ledger3 Proofs.LedgerClosed Proofs.RangeDefs Proofs.Range.

(** * arithmetic below the supply bound never trips a check *)

Lemma BIG_facts : 0 < BIG /\ BIG * P18 < MAXDEC1 /\ BIG < MAXINT /\ MAXDEC1 < MAXDEC /\ 0 < P18 /\ 0 < GB /\ P18 = GB * GB.
Proof. repeat split; vm_compute; reflexivity. Qed.

Lemma proportion_total a s :
  0 <= a < BIG -> 0 <= s <= P18 -> exists r, proportion a s = Ok r /\ 0 <= r <= a.
Proof.
  intros Ha Hs. destruct BIG_facts as (B0 & B1 & B2 & B3 & B4 & _).
  destruct (proportion_gen a s) as (r & Hr & _ & Hb & _); [lia|exact Hs|nia|lia|eauto].
Qed.

Lemma afb_total p b : 0 <= p -> 0 <= b -> p * b < BIG * GB -> amount_for_bytes p b = Ok (afb p b).
Proof.
  intros Hp Hb Hlim. destruct BIG_facts as (B0 & B1 & B2 & B3 & B4 & B5 & B6).
  apply afb_exact_gen; [exact Hp|exact Hb|]. rewrite B6 in B1. nia.
Qed.

Lemma int_sub_total a b : 0 <= a < MAXINT -> 0 <= b < MAXINT -> int_sub a b = Ok (a - b).
Proof. intros Ha Hb. unfold int_sub, chk, fits. destruct (Z.abs (a - b) <? MAXINT) eqn:E; [reflexivity|lia]. Qed.
Lemma int_add_total a b : 0 <= a -> 0 <= b -> a + b < MAXINT -> int_add a b = Ok (a + b).
Proof. intros Ha Hb Hs. unfold int_add, chk, fits. destruct (Z.abs (a + b) <? MAXINT) eqn:E; [reflexivity|lia]. Qed.
Lemma int_mul_total a b : 0 <= a -> 0 <= b -> a * b < MAXINT -> int_mul a b = Ok (a * b).
Proof. intros Ha Hb Hs. unfold int_mul, chk, fits. assert (0 <= a * b) by nia. destruct (Z.abs (a * b) <? MAXINT) eqn:E; [reflexivity|lia]. Qed.
Lemma new_coin_total d a : 0 <= a -> new_coin d a = Ok (d, a).
Proof. intros Ha. unfold new_coin. destruct (a <? 0) eqn:E; [lia|reflexivity]. Qed.
Lemma coin_sub_total d a r : 0 <= r <= a -> a < MAXINT -> coin_sub (d, a) r = Ok (d, a - r).
Proof. intros Hr Ha. unfold coin_sub. simpl. rewrite int_sub_total by lia. simpl. apply new_coin_total. lia. Qed.

(* the charge for [u] of the bytes bought at the per-gigabyte price deposit / gigabytes: computed without
   overflow, monotone in [u], never above the deposit *)
Lemma metered_charge d g u :
  0 <= d < BIG -> 0 < g -> 0 <= u <= GB * g ->
  0 <= Z.quot d g /\ amount_for_bytes (Z.quot d g) u = Ok (afb (Z.quot d g) u) /\ 0 <= afb (Z.quot d g) u <= d /\
  forall u', u' <= u -> afb (Z.quot d g) u' <= afb (Z.quot d g) u.
Proof.
  intros Hd Hg Hu. destruct BIG_facts as (B0 & B1 & B2 & B3 & B4 & B5 & B6).
  assert (Hpr0 : 0 <= Z.quot d g) by (apply quot_nonneg; lia).
  assert (Hprg : Z.quot d g * g <= d) by (rewrite Z.quot_div_nonneg by lia; pose proof (Z.mul_div_le d g Hg); lia).
  split; [exact Hpr0|]. split; [apply afb_total; [exact Hpr0|lia|nia]|]. split.
  - split; [apply afb_nonneg; lia|]. etransitivity; [apply (afb_le_mono _ u (GB * g)); lia|]. apply afb_full; lia.
  - intros u' Hu'. apply afb_le_mono; [exact Hpr0|exact Hu'].
Qed.

(** * escrow transfers that the ledger covers cannot be refused *)

Definition recs_nonneg (s : state) : Prop := forall a d, 0 <= damt s a d.

Lemma ledger_recs_nonneg s : ledger_inv s -> recs_nonneg s.
Proof.
  intros [E N _ _] a d. unfold damt. rewrite E. unfold ledger_total. apply msum_nonneg. intros id sb Hsb. eapply N; eauto.
Qed.

Lemma escrow_covers s a d : escrow_ok s -> recs_nonneg s -> damt s a d <= bal s (c_deposit (cfg s)) d.
Proof.
  intros He Hn. rewrite (He d). unfold dep_total, damt, dep_of.
  destruct (deposits s !! a) as [c|] eqn:Ha; simpl.
  - apply (msum_ge_elem (fun c => amount_of c d) (deposits s) a c); [|exact Ha].
    intros k v Hk. specialize (Hn k d). unfold damt, dep_of in Hn. rewrite Hk in Hn. exact Hn.
  - rewrite amount_of_empty. apply msum_nonneg. intros k v Hk. specialize (Hn k d). unfold damt, dep_of in Hn. rewrite Hk in Hn. exact Hn.
Qed.

Lemma bank_send_total s f t d amt : 0 <= amt <= bal s f d -> exists s', bank_send s f t d amt = Ok s'.
Proof.
  intros Ha. unfold bank_send. destruct (amt <? 0) eqn:E1; [lia|]. destruct (amt =? 0); [eauto|].
  destruct (bal s f d <? amt) eqn:E2; [lia|eauto].
Qed.

Lemma z_dep_to_module_total s a m d amt :
  escrow_ok s -> recs_nonneg s -> 0 <= amt <= damt s a d -> exists s', z_dep_to_module s a m (d, amt) = Ok s'.
Proof.
  intros He Hn Ha. unfold z_dep_to_module. simpl. destruct (amt =? 0) eqn:E0; [eauto|]. apply Z.eqb_neq in E0.
  unfold dep_to_module. destruct (dep_remaining_ok s a d amt ltac:(lia)) as [c Hc]. rewrite Hc. simpl.
  pose proof (escrow_covers s a d He Hn) as Hcov.
  destruct (bank_send_total s (c_deposit (cfg s)) m d amt ltac:(lia)) as [s1 Hs1]. rewrite Hs1. simpl. eauto.
Qed.

Lemma z_dep_to_account_total s a t d amt :
  escrow_ok s -> recs_nonneg s -> t ∉ c_blocked (cfg s) -> 0 <= amt <= damt s a d -> exists s', z_dep_to_account s a t (d, amt) = Ok s'.
Proof.
  intros He Hn Hb Ha. unfold z_dep_to_account. simpl. destruct (amt =? 0) eqn:E0; [eauto|]. apply Z.eqb_neq in E0.
  unfold dep_to_account. destruct (dep_remaining_ok s a d amt ltac:(lia)) as [c Hc]. rewrite Hc. simpl.
  pose proof (escrow_covers s a d He Hn) as Hcov. unfold bank_send_to_account, is_blocked.
  rewrite bool_decide_eq_false_2 by exact Hb.
  destruct (bank_send_total s (c_deposit (cfg s)) t d amt ltac:(lia)) as [s1 Hs1]. rewrite Hs1. simpl. eauto.
Qed.

(* a debit keeps the records non-negative and the escrow backed *)
Lemma debit_module_keeps s a m d amt s' :
  money_inv s -> recs_nonneg s -> amt <= damt s a d -> z_dep_to_module s a m (d, amt) = Ok s' -> m <> c_deposit (cfg s) ->
  money_inv s' /\ recs_nonneg s' /\ (forall x d', damt s' x d' = damt s x d' - dlt a d amt x d') /\ cfg s' = cfg s.
Proof.
  intros Hm Hn Ha H Hne. split; [eapply money_inv_z_dep_to_module; eauto|]. pose proof (z_dep_to_module_damt _ _ _ _ _ H) as Hd. simpl in Hd.
  split; [|split; [exact Hd|exact (keeps_cfg _ _ _ (z_dep_to_module_keeps _ _ _ _ _ H))]].
  intros x d'. rewrite Hd. unfold dlt. case_bool_decide as Hc; [destruct Hc as [-> ->]; lia|specialize (Hn x d'); lia].
Qed.

Lemma debit_account_keeps s a t d amt s' :
  money_inv s -> recs_nonneg s -> amt <= damt s a d -> z_dep_to_account s a t (d, amt) = Ok s' ->
  money_inv s' /\ recs_nonneg s' /\ (forall x d', damt s' x d' = damt s x d' - dlt a d amt x d') /\ cfg s' = cfg s.
Proof.
  intros Hm Hn Ha H. split; [eapply money_inv_z_dep_to_account; eauto|]. pose proof (z_dep_to_account_damt _ _ _ _ _ H) as Hd. simpl in Hd.
  split; [|split; [exact Hd|exact (keeps_cfg _ _ _ (z_dep_to_account_keeps _ _ _ _ _ H))]].
  intros x d'. rewrite Hd. unfold dlt. case_bool_decide as Hc; [destruct Hc as [-> ->]; lia|specialize (Hn x d'); lia].
Qed.

(* the split of a payment out of the deposit of [a]: the fee of [share] to the fee collector, the rest to [t] *)
Lemma pay_split_total s a t d amt share :
  money_inv s -> recs_nonneg s -> t ∉ c_blocked (cfg s) -> 0 <= share <= P18 -> 0 <= amt < BIG -> amt <= damt s a d ->
  exists r s2 s3, proportion amt share = Ok r /\ z_dep_to_module s a (c_feecoll (cfg s)) (d, r) = Ok s2 /\
    coin_sub (d, amt) r = Ok (d, amt - r) /\ z_dep_to_account s2 a t (d, amt - r) = Ok s3.
Proof.
  intros Hm Hn Hb Hshare Ha Hle. destruct BIG_facts as (_ & _ & B2 & _).
  destruct (proportion_total amt share Ha Hshare) as (r & Hprop & Hr).
  destruct (z_dep_to_module_total s a (c_feecoll (cfg s)) d r (mi_escrow _ Hm) Hn ltac:(lia)) as [s2 Hs2].
  destruct (debit_module_keeps s a _ d r s2 Hm Hn ltac:(lia) Hs2 (wf_fee_ne _ (mi_cfg _ Hm))) as (Hm2 & Hn2 & Hd2 & Hc2).
  destruct (z_dep_to_account_total s2 a t d (amt - r) (mi_escrow _ Hm2) Hn2) as [s3 Hs3].
  { rewrite Hc2. exact Hb. }
  { rewrite Hd2. unfold dlt. rewrite bool_decide_eq_true_2 by auto. lia. }
  exists r, s2, s3. split; [exact Hprop|]. split; [exact Hs2|]. split; [apply coin_sub_total; lia|exact Hs3].
Qed.

(* the escrow record of the owner covers what a subscription still owes: the unpaid hours, or the unused part of
   a per-gigabyte deposit *)
Lemma ledger_covers_hourly s id sb n g h dep po :
  ledger_inv s -> subs s !! id = Some sb -> sb_kind sb = KNode n g h dep -> h <> 0 -> payouts s !! sb_id sb = Some po ->
  (po_price po).2 * po_hours po <= damt s (sb_addr sb) dep.1.
Proof.
  intros Hg Hsb Hk Hh Hpo. pose proof (ledger_bound s (sb_addr sb) dep.1 id sb Hg Hsb) as Hb.
  rewrite (unsettled_hourly s _ _ sb n g h dep po Hk Hh Hpo), bool_decide_eq_true_2 in Hb by auto. exact Hb.
Qed.
Lemma ledger_covers_metered s id sb n g dep al :
  ledger_inv s -> subs s !! id = Some sb -> sb_kind sb = KNode n g 0 dep -> allocs s !! (sb_id sb, sb_addr sb) = Some al ->
  dep.2 - afb (Z.quot dep.2 g) (al_used al) <= damt s (sb_addr sb) dep.1.
Proof.
  intros Hg Hsb Hk Hal. pose proof (ledger_bound s (sb_addr sb) dep.1 id sb Hg Hsb) as Hb.
  rewrite (unsettled_metered s _ _ sb n g dep al Hk Hal), bool_decide_eq_true_2 in Hb by auto. exact Hb.
Qed.

(** * the hourly payout cannot panic *)

Record hook_inv (s : state) : Prop := {
  hk_life : life_inv s; hk_quota : quota_inv s; hk_ledger : ledger_inv s; hk_money : money_inv s; hk_range : range_inv s }.

Lemma payout_step_total s e :
  hook_inv s -> e ∈ pay_q s -> exists s', payout_step s e = Ok s'.
Proof.
  intros [Hl Hq Hg Hm Hr] He. pose proof (lf_idx _ Hl) as Hall. pose proof (ai_sub _ Hall) as Hix. pose proof (ai_k _ Hall) as Hi.
  destruct e as [t id]. destruct (proj1 (ix_payq _ Hix t id) He) as (po & sb & Hpo & Hnx & Hh & Hsb & Hact).
  destruct (st_pay_sub _ Hix _ _ Hpo) as (_ & sb0 & g & h & dep & Hsb0 & Hkind & Hh0 & Haddr). rewrite Hsb in Hsb0. injection Hsb0 as <-.
  destruct (lg_price _ Hg _ _ _ _ _ _ _ Hsb Hkind Hh0 Hpo) as (Hprice & Hhours).
  pose proof (st_kind _ Hix _ _ Hsb) as Hk. rewrite Hkind in Hk. destruct Hk as [Hgh Hdep0].
  assert (Hhpos : 0 < h) by lia.
  destruct (rg_sub _ Hr _ _ Hsb) as (Hnb & Hrs). rewrite Hkind in Hrs. destruct Hrs as [Hbig Hnode].
  destruct (k_sub _ (ki_sub _ Hi) _ _ Hsb) as (Eid & _). destruct (k_po _ (ki_sub _ Hi) _ _ Hpo) as (Epid & _).
  set (price := Z.quot dep.2 h) in *.
  assert (Hp0 : 0 <= price) by (apply quot_nonneg; lia).
  assert (Hp1 : price * po_hours po <= dep.2) by (apply quot_mul_le; lia).
  assert (Hp2 : price <= price * po_hours po) by nia.
  destruct BIG_facts as (B0 & B1 & B2 & _).
  destruct (lf_par _ Hl) as [_ _ _ _ Hshare _].
  (* the ledger covers the payment *)
  assert (Hbound : price * po_hours po <= damt s (po_addr po) dep.1).
  { rewrite Haddr. pose proof (ledger_covers_hourly s id sb _ g h dep po Hg Hsb Hkind Hh0 ltac:(rewrite Eid; exact Hpo)) as Hb.
    rewrite Hprice in Hb. exact Hb. }
  unfold payout_step. simpl. rewrite Hpo.
  set (s1 := s <| pay_q ::= fun q => q ∖ {[ (po_next_at po, po_id po) ]} |>).
  assert (Hm1 : money_inv s1) by (eapply (money_inv_keeps NONMONEY s); [unfold s1; keeps_conv|reflexivity..|exact Hm]).
  assert (Hn1 : recs_nonneg s1) by (intros a d; apply (ledger_recs_nonneg s Hg a d)).
  destruct (pay_split_total s1 (po_addr po) (po_node po) dep.1 price (p_node_share (pars s)) Hm1 Hn1 Hnode Hshare) as (r & s2 & s3 & E1 & E2 & E3 & E4);
    [lia|change (damt s1 (po_addr po) dep.1) with (damt s (po_addr po) dep.1); lia|].
  rewrite Hprice. simpl. change (p_node_share (pars s1)) with (p_node_share (pars s)). change (cfg s1) with (cfg s) in E2.
  rewrite E1. simpl. rewrite E2. simpl. rewrite E3. simpl. rewrite E4. simpl. eauto.
Qed.

(** * a fold in which every step succeeds; the index invariants under a frame *)

Lemma rfold_ok {A S} (P : list A -> S -> Prop) (f : S -> A -> res S) l : forall s,
  (forall x rest s, P (x :: rest) s -> exists s', f s x = Ok s' /\ P rest s') ->
  P l s -> exists s', rfold f l s = Ok s' /\ P [] s'.
Proof.
  induction l as [|x l IH]; simpl; intros s Hf Hp.
  - eauto.
  - destruct (Hf x l s Hp) as (s1 & H1 & P1). rewrite H1. simpl. apply IH; assumption.
Qed.

Lemma all_idx_keeps T s s' :
  keeps T s s' -> touched GPv T = false -> touched GNode T = false -> touched GPl T = false ->
  touched GSub T = false -> touched GSess T = false -> all_idx s -> all_idx s'.
Proof.
  intros Hk T1 T2 T3 T4 T5 [A B C D E]. split.
  - eapply kinv_other; eauto.
  - eapply idx_sess_keeps; eauto.
  - eapply idx_node_keeps; eauto.
  - eapply idx_sub_keeps; eauto.
  - eapply idx_plan_keeps; eauto.
Qed.

(** * the invariants carried through the hooks are preserved by each iteration *)

Lemma hook_inv_payout_step s e s' : hook_inv s -> e ∈ pay_q s -> payout_step s e = Ok s' -> hook_inv s'.
Proof.
  intros [Hl Hq Hg Hm Hr] He H. pose proof (payout_step_keeps _ _ _ H) as Hk. destruct Hl as [[A B C D E] Hp Hlk].
  split; [split; [split|..]|..].
  - eapply kinv_payout_step_full; eauto.
  - eapply idx_sess_keeps; eauto.
  - eapply idx_node_keeps; eauto.
  - eapply idx_payout_step; eauto. apply A.
  - eapply idx_plan_keeps; eauto.
  - rewrite (proj1 (keeps_par _ _ _ Hk eq_refl)). exact Hp.
  - eapply link_payout_step; eauto.
  - exact (quota_payout_step s e s' Hq H).
  - exact (ledger_payout_step s e s' A D Hg He H).
  - exact (money_payout_step s e s' Hm H).
  - exact (range_payout_step s e s' Hr H).
Qed.

Lemma hook_inv_session_expire_one s e s' : hook_inv s -> session_expire_one s e = Ok s' -> hook_inv s'.
Proof.
  intros [Hl Hq Hg Hm Hr] H. pose proof (session_expire_one_keeps _ _ _ H) as Hk.
  pose proof (end_inv_session_expire_one _ _ _ (life_end_inv _ Hl) H) as [A' B' C' D' E'].
  destruct Hl as [[A B C D E] Hp Hlk].
  split; [split; [split|..]|..]; try assumption.
  - eapply idx_node_keeps; eauto.
  - eapply idx_plan_keeps; eauto.
  - exact (quota_session_expire_one s e s' A Hq H).
  - exact (ledger_session_expire_one s e s' A Hq D Hg H).
  - exact (money_session_expire_one s e s' Hm H).
  - exact (range_session_expire_one s e s' A Hr H).
Qed.

Lemma hook_inv_sub_expire_one s e s' :
  hook_inv s -> sess_fresh s -> e ∈ sub_q s -> e.1 <= now s -> sub_expire_one s e = Ok s' -> hook_inv s'.
Proof.
  intros [Hl Hq Hg Hm Hr] Hf He Hdue H. pose proof (sub_expire_one_keeps _ _ _ H) as Hk.
  destruct Hl as [[A B C D E] Hp Hlk].
  split; [split; [split|..]|..].
  - eapply kinv_sub_expire_one; eauto.
  - eapply idx_sess_sub_expire_one; eauto.
  - eapply idx_node_keeps; eauto.
  - eapply idx_sub_expire_one; eauto.
  - eapply idx_plan_keeps; eauto.
  - rewrite (proj1 (keeps_par _ _ _ Hk eq_refl)). exact Hp.
  - eapply link_sub_expire_one; eauto.
  - exact (quota_sub_expire_one s e s' A Hq H).
  - exact (ledger_sub_expire_one s e s' A D Hg H).
  - exact (money_sub_expire_one s e s' Hm H).
  - exact (range_sub_expire_one s e s' Hr H).
Qed.

(** * settlement cannot fail *)

Lemma session_inactive_hook_total s x :
  hook_inv s -> sessions s !! ss_id x = Some x -> ss_status x = SPending ->
  exists s1, session_inactive_hook (s <| sess_q ::= fun q => q ∖ {[ (ss_inactive_at x, ss_id x) ]} |>)
               (ss_id x) (ss_addr x) (ss_node x) (ss_up x + ss_down x) = Ok s1.
Proof.
  intros [Hl Hq Hg Hm Hr] Hx Hpend. set (s0 := s <| sess_q ::= _ |>).
  (* the settlement reads everything but the session queue *)
  assert (Hk0 : keeps [GSess] s s0) by (unfold s0; keeps_conv). assert (Es0 : sessions s0 = sessions s) by reflexivity.
  pose proof (lf_idx _ Hl) as Hall. pose proof (ai_sub _ Hall) as Hix. pose proof (ai_k _ Hall) as Hi.
  destruct (lf_link _ Hl) as [L]. destruct (L _ _ Hx) as (sb & Hsb & Hha & _).
  destruct (rg_sess _ Hr _ _ Hx) as (Hup & Hdown & Hsum & Hnodeok).
  destruct (k_sub _ (ki_sub _ Hi) _ _ Hsb) as (Eid & _).
  assert (F1 : subs s0 = subs s) by reflexivity. assert (F2 : allocs s0 = allocs s) by reflexivity.
  assert (F6 : pars s0 = pars s) by reflexivity.
  unfold session_inactive_hook. rewrite Es0, Hx. rewrite Hpend. simpl. rewrite ?F1, Hsb.
  pose proof (st_kind _ Hix _ _ Hsb) as Hkind.
  destruct (sb_kind sb) as [nd g h dep|pid dn] eqn:Ek.
  - destruct Hkind as [[[-> Hh]|[Hg0 ->]] Hdep0].
    + (* hourly: nothing to settle *) destruct (h =? 0) eqn:Eh; [lia|]. simpl. eauto.
    + (* per gigabyte *)
      simpl. destruct Hha as [Hh|[al Hal]]; [unfold hourly in Hh; rewrite Ek in Hh; simpl in Hh; discriminate|].
      destruct (st_alloc_sub _ Hix _ _ _ Hal) as (sb1 & Hsb1 & _ & Hmet). rewrite Hsb in Hsb1. injection Hsb1 as <-.
      assert (Eacc : ss_addr x = sb_addr sb) by (apply Hmet; unfold metered; rewrite Ek; destruct (g =? 0) eqn:E0; [lia|reflexivity]).
      rewrite Eid, ?F2, Hal. destruct (g =? 0) eqn:Eg0; [lia|].
      destruct (rg_sub _ Hr _ _ Hsb) as (Hnb & Hrs). rewrite Ek in Hrs. destruct Hrs as [Hbig Hnode].
      assert (Hal' : allocs s !! (ss_sub x, sb_addr sb) = Some al) by (rewrite <- Eacc; exact Hal).
      destruct (lg_alloc _ Hg _ _ _ _ _ _ _ Hsb Ek eq_refl Hal') as (Hgr & Hu0 & Hu1).
      destruct (rg_alloc _ Hr _ _ Hal) as (Hg0' & Hg1).
      destruct (k_al _ (ki_sub _ Hi) _ _ Hal) as (Ea1 & Ea2 & _). simpl in Ea1, Ea2.
      destruct BIG_facts as (B0 & B1 & B2 & _).
      destruct (metered_charge dep.2 g (al_used al) ltac:(lia) Hg0 ltac:(lia)) as (Hpr0 & Ea & [Hafb0 _] & _).
      set (pr := Z.quot dep.2 g) in *.
      unfold int_quo. rewrite Eg0. simpl. fold pr. rewrite (new_coin_total dep.1 pr Hpr0). simpl. rewrite Ea. simpl.
      rewrite (int_sub_total (al_granted al) (al_used al)) by lia. simpl.
      set (b := ss_up x + ss_down x).
      set (used' := if al_granted al - al_used al <? b then al_granted al else al_used al + b).
      assert (Hu' : al_used al <= used' <= al_granted al) by (unfold used'; destruct (al_granted al - al_used al <? b) eqn:E; lia).
      assert (Eu : (if al_granted al - al_used al <? b then Ok (al_granted al) else int_add (al_used al) b) = Ok used').
      { unfold used'. destruct (al_granted al - al_used al <? b) eqn:E; [reflexivity|]. apply int_add_total; lia. }
      destruct (metered_charge dep.2 g used' ltac:(lia) Hg0 ltac:(lia)) as (_ & Eb & [_ Hafb2] & Hmono). fold pr in Eb, Hafb2, Hmono.
      pose proof (Hmono (al_used al) ltac:(lia)) as Hafb1.
      rewrite Eu. simpl. rewrite Eb. simpl.
      rewrite (int_sub_total (afb pr used') (afb pr (al_used al))) by lia. simpl.
      set (diff := afb pr used' - afb pr (al_used al)).
      rewrite (new_coin_total dep.1 diff) by (unfold diff; lia). simpl.
      destruct (lf_par _ Hl) as [_ _ _ _ Hshare _].
      (* the ledger covers the charge *)
      assert (Hbound : dep.2 - afb pr (al_used al) <= damt s (sb_addr sb) dep.1).
      { apply (ledger_covers_metered s _ sb nd g dep al Hg Hsb Ek). rewrite Eid. exact Hal'. }
      match goal with |- context [z_dep_to_module ?sa _ _ _] => set (s1 := sa) end.
      assert (Hk1 : keeps NONMONEY s s1) by (eapply keeps_trans; [weaken_to Hk0|unfold s1; keeps_conv]).
      assert (Hm1 : money_inv s1) by (eapply (money_inv_keeps NONMONEY s); [exact Hk1|reflexivity..|exact Hm]).
      assert (Hd1 : forall a d, damt s1 a d = damt s a d) by (intros a d; unfold damt, dep_of; rewrite (keeps_dep _ _ _ Hk1 eq_refl); reflexivity).
      assert (Hn1 : recs_nonneg s1) by (intros a d; rewrite Hd1; apply (ledger_recs_nonneg s Hg a d)).
      assert (Hc1 : cfg s1 = cfg s) by apply Hk1.
      destruct (pay_split_total s1 (sb_addr sb) (ss_node x) dep.1 diff (p_node_share (pars s)) Hm1 Hn1) as (r & s2 & s3 & E1 & E2 & E3 & E4);
        [rewrite Hc1; exact Hnodeok|exact Hshare|unfold diff; lia|rewrite Hd1; unfold diff; lia|].
      rewrite ?F6, E1. simpl. rewrite Eacc. rewrite Hc1 in E2. rewrite E2. simpl. rewrite E3. simpl. rewrite E4. simpl. eauto.
  - (* plan subscription: only the usage moves *)
    simpl. destruct Hha as [Hh|[al Hal]]; [unfold hourly in Hh; rewrite Ek in Hh; discriminate|].
    rewrite Eid, ?F2, Hal. simpl.
    destruct (rg_alloc _ Hr _ _ Hal) as (Hg0' & Hg1). destruct (q_alloc _ Hq _ _ Hal) as (Hu0 & Hu1).
    rewrite (int_sub_total (al_granted al) (al_used al)) by lia. simpl.
    destruct (al_granted al - al_used al <? ss_up x + ss_down x) eqn:E; simpl; [eauto|].
    rewrite int_add_total by lia. simpl. eauto.
Qed.

Lemma session_expire_one_total s e : hook_inv s -> e ∈ sess_q s -> exists s', session_expire_one s e = Ok s'.
Proof.
  intros Hh He. pose proof (lf_idx _ (hk_life _ Hh)) as Hall. destruct e as [t sid].
  destruct (proj1 (ix_sq _ (ai_sess _ Hall) t sid) He) as (x & Hx & Hiat).
  destruct (k_ss _ (ki_sess _ (ai_k _ Hall)) _ _ Hx) as (Eid & _ & Hlive).
  unfold session_expire_one. simpl. rewrite Hx. case_bool_decide as Hact; [eauto|].
  assert (Hpend : ss_status x = SPending) by (destruct Hlive; [contradiction|assumption]).
  destruct (rg_sess _ (hk_range _ Hh) _ _ Hx) as (Hup & Hdown & Hsum & _).
  rewrite int_add_total by lia. simpl.
  destruct (session_inactive_hook_total s x Hh) as [s1 Hs1]; [rewrite Eid; exact Hx|exact Hpend|].
  rewrite Hs1. simpl. eauto.
Qed.

(** * expiry of subscriptions cannot fail *)

Lemma sub_pending_hook_total s id : idx_sess s -> exists s', sub_pending_hook s id = Ok s'.
Proof.
  intros Hix. unfold sub_pending_hook.
  set (P := fun (rest : list Z) (x : state) => forall sid, sid ∈ rest -> is_Some (sessions x !! sid)).
  destruct (rfold_ok P (fun s sid => match sessions s !! sid with
                                        | None => Panic
                                        | Some x => if bool_decide (ss_status x = SActive) then Ok (session_make_pending s x) else Ok s
                                        end) (rev (ids_for_z (sess_sub s) id)) s) as (s' & Hs' & _).
  - intros sid rest x HP. destruct (HP sid ltac:(left)) as [y Hy]. rewrite Hy.
    case_bool_decide; eexists; (split; [reflexivity|]); intros sid' Hin; specialize (HP sid' ltac:(right; exact Hin)); [|exact HP].
    unfold session_make_pending. simpl. destruct (decide (sid' = ss_id y)) as [->|Hne]; [rewrite lookup_insert; eauto|rewrite lookup_insert_ne by congruence; exact HP].
  - intros sid Hin. apply elem_of_rev', elem_of_ids_for_z, (ix_ssub _ Hix) in Hin as (y & Hy & _). eauto.
  - eauto.
Qed.

Lemma sub_refund_total s sb :
  hook_inv s -> subs s !! sb_id sb = Some sb ->
  exists s1, sub_refund (s <| sub_q ::= fun q => q ∖ {[ (sb_inactive_at sb, sb_id sb) ]} |>) sb = Ok s1.
Proof.
  intros [Hl Hq Hg Hm Hr] Hsb. set (s0 := s <| sub_q ::= _ |>).
  (* the refund reads allocations, payouts, deposits and the configuration: the queue update does not touch them *)
  assert (Ea0 : allocs s0 = allocs s) by reflexivity. assert (Ep0 : payouts s0 = payouts s) by reflexivity.
  pose proof (lf_idx _ Hl) as Hall. pose proof (ai_sub _ Hall) as Hix. pose proof (ai_k _ Hall) as Hi.
  pose proof (st_kind _ Hix _ _ Hsb) as Hkind.
  destruct (rg_sub _ Hr _ _ Hsb) as (Hnb & Hrs).
  assert (Hm0 : money_inv s0) by (eapply (money_inv_keeps NONMONEY s); [unfold s0; keeps_conv|reflexivity..|exact Hm]).
  assert (Hd0 : forall a d, damt s0 a d = damt s a d) by reflexivity.
  assert (Hn0 : recs_nonneg s0) by exact (ledger_recs_nonneg s Hg).
  assert (Hc0 : cfg s0 = cfg s) by reflexivity.
  destruct BIG_facts as (B0 & B1 & B2 & B3 & B4 & B5 & B6).
  unfold sub_refund. destruct (sb_kind sb) as [nd g h dep|pid dn] eqn:Ek; [|eauto].
  destruct Hrs as [Hbig Hnode]. destruct Hkind as [[[-> Hh]|[Hg0 ->]] Hdep0].
  - (* hourly *)
    simpl. destruct (h =? 0) eqn:Eh; [lia|]. simpl.
    destruct (st_sub_pay _ Hix _ _ Hsb) as [po Hpo]; [unfold hourly; rewrite Ek, Eh; reflexivity|].
    rewrite ?Ep0, Hpo.
    destruct (lg_price _ Hg _ _ _ _ _ _ _ Hsb Ek ltac:(lia) Hpo) as (Hprice & Hhours).
    destruct (st_pay_sub _ Hix _ _ Hpo) as (_ & sb1 & g1 & h1 & d1 & Hsb1 & _ & _ & Haddr). rewrite Hsb in Hsb1. injection Hsb1 as <-.
    rewrite Hprice. simpl. set (price := Z.quot dep.2 h).
    assert (Hp0 : 0 <= price) by (apply quot_nonneg; lia).
    assert (Hp1 : price * po_hours po <= dep.2) by (apply quot_mul_le; lia).
    rewrite int_mul_total by (try nia; lia). simpl. rewrite new_coin_total by nia. simpl.
    assert (Hbound : price * po_hours po <= damt s (po_addr po) dep.1).
    { rewrite Haddr. pose proof (ledger_covers_hourly s _ sb _ 0 h dep po Hg Hsb Ek ltac:(lia) Hpo) as Hb.
      rewrite Hprice in Hb. exact Hb. }
    destruct (z_dep_to_account_total s0 (po_addr po) (po_addr po) dep.1 (price * po_hours po) (mi_escrow _ Hm0) Hn0) as [s1 Hs1].
    { rewrite Hc0, Haddr. exact Hnb. }
    { rewrite Hd0. assert (0 <= price * po_hours po) by nia. lia. }
    unfold z_dep_to_account in Hs1. simpl in Hs1. rewrite Hs1. simpl. eauto.
  - (* per gigabyte *)
    simpl. destruct (g =? 0) eqn:Eg0; [lia|]. simpl. unfold int_quo. rewrite Eg0. simpl.
    destruct (st_sub_alloc _ Hix _ _ Hsb) as [al Hal]; [unfold hourly; rewrite Ek; reflexivity|].
    destruct (lg_alloc _ Hg _ _ _ _ _ _ _ Hsb Ek eq_refl Hal) as (Hgr & Hu0 & Hu1).
    destruct (metered_charge dep.2 g (al_used al) ltac:(lia) Hg0 ltac:(lia)) as (Hpr0 & Ea & [Hafb0 Hafb2] & _).
    set (pr := Z.quot dep.2 g) in *.
    rewrite (new_coin_total dep.1 pr Hpr0). simpl. rewrite ?Ea0, Hal, Ea. simpl.
    rewrite (int_sub_total dep.2 (afb pr (al_used al))) by lia. simpl.
    rewrite new_coin_total by lia. simpl.
    assert (Hbound : dep.2 - afb pr (al_used al) <= damt s (sb_addr sb) dep.1).
    { exact (ledger_covers_metered s _ sb nd g dep al Hg Hsb Ek Hal). }
    destruct (z_dep_to_account_total s0 (sb_addr sb) (sb_addr sb) dep.1 (dep.2 - afb pr (al_used al)) (mi_escrow _ Hm0) Hn0) as [s1 Hs1].
    { rewrite Hc0. exact Hnb. }
    { rewrite Hd0. lia. }
    unfold z_dep_to_account in Hs1. simpl in Hs1. rewrite Hs1. simpl. eauto.
Qed.

Lemma sub_expire_one_total s e : hook_inv s -> e ∈ sub_q s -> exists s', sub_expire_one s e = Ok s'.
Proof.
  intros Hh He. pose proof (lf_idx _ (hk_life _ Hh)) as Hall. pose proof (ai_sub _ Hall) as Hix. destruct e as [t id].
  destruct (proj1 (ix_subq _ Hix t id) He) as (sb & Hsb & Hiat).
  destruct (k_sub _ (ki_sub _ (ai_k _ Hall)) _ _ Hsb) as (Eid & _ & Hlive).
  unfold sub_expire_one. simpl. rewrite Hsb. case_bool_decide as Hact.
  - set (s0 := s <| sub_q ::= fun q => q ∖ {[ (sb_inactive_at sb, sb_id sb) ]} |>).
    destruct (sub_pending_hook_total s0 (sb_id sb)) as [s1 Hs1].
    { eapply idx_sess_frame; [..|apply (ai_sess _ Hall)]; reflexivity. }
    rewrite Hs1. simpl. unfold detach_payout. destruct (sb_kind sb) as [nd g h dep|pid dn] eqn:Ek; [|eauto].
    destruct (h =? 0) eqn:Eh; [eauto|].
    destruct (st_sub_pay _ Hix _ _ Hsb) as [po Hpo]; [unfold hourly; rewrite Ek, Eh; reflexivity|].
    apply sub_pending_hook_keeps in Hs1.
    destruct (keeps_sub _ _ _ Hs1 eq_refl) as (_ & _ & _ & _ & _ & _ & _ & Ep & _). change (payouts s0) with (payouts s) in Ep.
    unfold sub_make_pending. simpl. rewrite Ep, Eid, Hpo. eauto.
  - set (s0 := s <| sub_q ::= fun q => q ∖ {[ (sb_inactive_at sb, sb_id sb) ]} |>).
    rewrite <- Eid in Hsb.
    destruct (sub_refund_total s sb Hh Hsb) as [s1 Hs1]. fold s0 in Hs1.
    rewrite Hs1. simpl. unfold sub_delete_payout. destruct (sb_kind sb) as [nd g h dep|pid dn] eqn:Ek; [|eauto].
    destruct (h =? 0) eqn:Eh; [eauto|].
    destruct (st_sub_pay _ Hix _ _ Hsb) as [po Hpo]; [unfold hourly; rewrite Ek, Eh; reflexivity|].
    destruct (sub_refund_subfields _ _ _ Hs1) as (_ & _ & _ & _ & _ & _ & _ & R7 & _).
    destruct (sub_cleanup_fields s1 sb) as (_ & Cp & _). simpl. rewrite Cp, R7. simpl. rewrite Hpo. eauto.
Qed.

(** * loops *)

Lemma sub_begin_block_total s : hook_inv s -> exists s', sub_begin_block s = Ok s' /\ hook_inv s'.
Proof.
  intros Hh. unfold sub_begin_block.
  set (P := fun (rest : list (time * Z)) (x : state) => hook_inv x /\ NoDup rest /\ forall e, e ∈ rest -> e ∈ pay_q x).
  destruct (rfold_ok P payout_step (due_z (pay_q s) (now s)) s) as (s' & Hs' & G).
  - intros e rest x (Hx & Hnd & Hin).
    assert (He : e ∈ pay_q x) by (apply Hin; left).
    destruct (payout_step_total x e Hx He) as [x' Hx'].
    exists x'. split; [exact Hx'|]. split; [eapply hook_inv_payout_step; eauto|]. split; [inversion Hnd; assumption|].
    intros e' He'. assert (Hne : e' <> e) by (inversion Hnd; subst; intros ->; contradiction).
    assert (He'q : e' ∈ pay_q x) by (apply Hin; right; exact He').
    pose proof (ai_sub _ (lf_idx _ (hk_life _ Hx))) as Hixx. pose proof (ai_k _ (lf_idx _ (hk_life _ Hx))) as Hkx.
    destruct e as [t id]. destruct (proj1 (ix_payq _ Hixx t id) He) as (po & sb & Hpo & Hnx & Hhrs & Hsb & Hact).
    destruct (k_po _ (ki_sub _ Hkx) _ _ Hpo) as [Eid _].
    destruct (payout_step_spec x (t, id) x' po Hpo Hx') as (_ & _ & _ & _ & _ & _ & _ & _ & _ & _ & E8).
    cbv zeta in E8. rewrite E8, Hnx, Eid. destruct (0 <? po_hours po - 1); set_solver.
  - split; [exact Hh|]. split; [apply NoDup_due_z|]. intros e He. apply elem_of_due_z in He. tauto.
  - exists s'. split; [exact Hs'|apply G].
Qed.
(* a queue [q] indexes the records of [m] by their deadline; when only the record under [k] is rewritten or removed,
   the other entries of a list of queued entries stay queued *)
Lemma queue_rest {K V} `{Countable K} (iat : V -> time) (m m' : gmap K V) (q q' : gset (time * K)) t k v (rest : list (time * K)) :
  (forall t k, (t, k) ∈ q <-> exists v, m !! k = Some v /\ iat v = t) ->
  (forall t k, (t, k) ∈ q' <-> exists v, m' !! k = Some v /\ iat v = t) ->
  (forall k', k' <> k -> m' !! k' = m !! k') ->
  m !! k = Some v -> iat v = t -> (t, k) ∉ rest -> (forall e, e ∈ rest -> e ∈ q) ->
  forall e, e ∈ rest -> e ∈ q'.
Proof.
  intros Hq Hq' Hm Hv Hiat Hnotin Hin [t' k'] He'. apply Hq'. destruct (proj1 (Hq t' k') (Hin _ He')) as (v' & Hv' & Hiat').
  assert (Hne : k' <> k). { intros ->. rewrite Hv in Hv'. injection Hv' as <-. apply Hnotin. rewrite <- Hiat, Hiat'. exact He'. }
  exists v'. split; [|exact Hiat']. rewrite (Hm _ Hne). exact Hv'.
Qed.

(* the queue part of the loop invariants: the snapshot entries not yet processed are still queued *)
Definition sess_rest (rest : list (time * Z)) (x : state) : Prop := NoDup rest /\ forall e, e ∈ rest -> e ∈ sess_q x.
Definition sub_rest (rest : list (time * Z)) (x : state) : Prop :=
  NoDup rest /\ forall e, e ∈ rest -> e ∈ sub_q x /\ e.1 <= now x.

Lemma sess_rest_step e rest x x' :
  end_inv x -> end_inv x' -> sess_rest (e :: rest) x -> session_expire_one x e = Ok x' -> sess_rest rest x'.
Proof.
  intros Hx Hx' (Hnd & Hin) Hstep. apply NoDup_cons in Hnd as [Hnotin Hnd].
  destruct e as [t id]. assert (He : (t, id) ∈ sess_q x) by (apply Hin; left).
  destruct (proj1 (ix_sq _ (ei_sess _ Hx) t id) He) as (y & Hy & Hiat).
  destruct (k_ss _ (ki_sess _ (ei_k _ Hx)) _ _ Hy) as (Eid & _).
  destruct (session_expire_one_sessions x (t, id) x' y Hy Eid Hstep) as (M1 & M2 & M3). simpl in M3.
  split; [exact Hnd|].
  apply (queue_rest ss_inactive_at _ _ _ _ t id y rest (ix_sq _ (ei_sess _ Hx)) (ix_sq _ (ei_sess _ Hx'))); try assumption.
  - intros k' Hne. rewrite M3. case_bool_decide; [apply lookup_insert_ne|apply lookup_delete_ne]; congruence.
  - intros e He'. apply Hin. right. exact He'.
Qed.

Lemma sub_rest_step e rest x x' :
  end_inv x -> end_inv x' -> sub_rest (e :: rest) x -> sub_expire_one x e = Ok x' -> sub_rest rest x'.
Proof.
  intros Hx Hx' (Hnd & Hin) Hstep. apply NoDup_cons in Hnd as [Hnotin Hnd].
  destruct e as [t id]. destruct (Hin (t, id) ltac:(left)) as [He Hle]. simpl in Hle.
  destruct (proj1 (ix_subq _ (ei_sub _ Hx) t id) He) as (sb & Hsb & Hiat).
  destruct (k_sub _ (ki_sub _ (ei_k _ Hx)) _ _ Hsb) as (Eid & _).
  destruct (sub_expire_one_fields x (t, id) x' sb (ei_k _ Hx) (ei_sess _ Hx) Hsb Eid Hstep) as (M1 & M2 & M3 & M4). simpl in M3, M4.
  split; [exact Hnd|].
  intros e He'. split; [|rewrite M1; apply Hin; right; exact He'].
  apply (queue_rest sb_inactive_at _ _ _ _ t id sb rest (ix_subq _ (ei_sub _ Hx)) (ix_subq _ (ei_sub _ Hx'))); try assumption.
  - intros k' Hne. rewrite M3. case_bool_decide; [apply lookup_insert_ne|apply lookup_delete_ne]; congruence.
  - intros e0 He0. apply Hin. right. exact He0.
Qed.

Lemma hook_end_inv s : hook_inv s -> end_inv s.
Proof. intros Hh. apply life_end_inv, Hh. Qed.

Lemma session_end_block_total s :
  hook_inv s -> exists s', session_end_block s = Ok s' /\ hook_inv s' /\ sess_fresh s' /\ now s' = now s.
Proof.
  intros Hh. unfold session_end_block.
  set (P := fun (rest : list (time * Z)) (x : state) => hook_inv x /\ now x = now s /\ sess_rest rest x).
  destruct (rfold_ok P session_expire_one (due_z (sess_q s) (now s)) s) as (s' & Hs' & G1 & G2 & _).
  - intros e rest x (Hx & N1 & Hq). destruct Hq as (Q1 & Q2).
    destruct (session_expire_one_total x e Hx (Q2 e ltac:(left))) as [x' Hx'].
    pose proof (hook_inv_session_expire_one _ _ _ Hx Hx') as Hxx.
    exists x'. split; [exact Hx'|]. split; [exact Hxx|]. split.
    + rewrite <- N1. exact (keeps_now _ _ _ (session_expire_one_keeps _ _ _ Hx') eq_refl).
    + eapply sess_rest_step; [apply hook_end_inv; exact Hx|apply hook_end_inv; exact Hxx| |exact Hx']. split; [exact Q1|exact Q2].
  - split; [exact Hh|]. split; [reflexivity|]. split; [apply NoDup_due_z|]. intros e He. apply elem_of_due_z in He. tauto.
  - exists s'. split; [exact Hs'|]. split; [exact G1|]. split; [|exact G2].
    exact (proj1 (proj2 (session_end_block_fresh _ _ (hook_end_inv _ Hh) Hs'))).
Qed.

Lemma sub_end_block_total s :
  hook_inv s -> sess_fresh s -> exists s', sub_end_block s = Ok s' /\ hook_inv s' /\ now s' = now s.
Proof.
  intros Hh Hf. unfold sub_end_block.
  set (P := fun (rest : list (time * Z)) (x : state) => hook_inv x /\ sess_fresh x /\ now x = now s /\ sub_rest rest x).
  destruct (rfold_ok P sub_expire_one (due_z (sub_q s) (now s)) s) as (s' & Hs' & G1 & _ & G2 & _).
  - intros e rest x (Hx & Hfx & N1 & Hq). destruct Hq as (Q1 & Q2).
    destruct (Q2 e ltac:(left)) as [He Hle].
    destruct (sub_expire_one_total x e Hx He) as [x' Hx'].
    pose proof (hook_inv_sub_expire_one _ _ _ Hx Hfx He Hle Hx') as Hxx.
    exists x'. split; [exact Hx'|]. split; [exact Hxx|].
    pose proof (hook_end_inv _ Hx) as Ex.
    destruct e as [t id]. destruct (proj1 (ix_subq _ (ei_sub _ Ex) t id) He) as (sb & Hsb & Hiat).
    destruct (k_sub _ (ki_sub _ (ei_k _ Ex)) _ _ Hsb) as (Eid & _).
    destruct (sub_expire_one_fields x (t, id) x' sb (ei_k _ Ex) (ei_sess _ Ex) Hsb Eid Hx') as (M1 & M2 & M3 & M4). simpl in M4.
    split; [|split; [congruence|]].
    + intros sid y Hy. rewrite M4 in Hy. rewrite M1. case_bool_decide.
      * destruct (sessions x !! sid) as [y0|] eqn:Hy0; [|discriminate]. simpl in Hy. injection Hy as <-.
        unfold demote_sess. case_bool_decide; simpl; [destruct (ei_par _ Ex); lia|apply (Hfx _ _ Hy0)].
      * apply (Hfx _ _ Hy).
    + eapply (sub_rest_step (t, id)); [exact Ex|apply hook_end_inv; exact Hxx| |exact Hx']. split; [exact Q1|exact Q2].
  - split; [exact Hh|]. split; [exact Hf|]. split; [reflexivity|]. split; [apply NoDup_due_z|]. intros e He. apply elem_of_due_z in He. tauto.
  - exists s'. auto.
Qed.

(** * nodes and the inflation schedule *)

Lemma node_end_block_total s : kinv s -> idx_node s -> exists s', node_end_block s = Ok s'.
Proof.
  intros Hi Hix. unfold node_end_block.
  assert (Hsw : exists s1, (if m_max_gb (modified s) || m_min_gb (modified s) || m_max_hr (modified s) || m_min_hr (modified s)
                            then rfold node_sweep_one (all_nodes s) s else Ok s) = Ok s1).
  { destruct (_ || _); [|eauto].
    set (P := fun (rest : list node) (x : state) => forall n, n ∈ rest -> nd_status n = SActive \/ nd_status n = SInactive).
    destruct (rfold_ok P node_sweep_one (all_nodes s) s) as (s1 & Hs1 & _); [| |eauto].
    - intros n rest x HP. unfold node_sweep_one. unfold set_node. simpl.
      destruct (HP n ltac:(left)) as [-> | ->]; simpl; eexists; (split; [reflexivity|]); intros n' Hn'; apply HP; right; exact Hn'.
    - intros n Hn. destruct (elem_of_all_nodes _ _ (ki_node _ Hi) Hn) as [[_ E]|[_ E]]; auto. }
  destruct Hsw as [s1 Hs1]. rewrite Hs1. simpl.
  assert (H1 : kinv_node s1 /\ idx_node s1).
  { destruct (_ || _); [|injection Hs1 as <-; split; [apply Hi|exact Hix]].
    destruct (node_sweep_keeps_act_iat _ _ Hi Hs1) as (K1 & K2 & K3 & K4). split; [exact K1|]. eapply idx_node_frame; eauto. }
  destruct H1 as [Hk1 Hix1].
  set (P := fun (rest : list (time * addr)) (x : state) => kinv_node x /\ idx_node x /\ NoDup rest /\ forall e, e ∈ rest -> e ∈ node_q x).
  destruct (rfold_ok P node_expire_one (due_a (node_q s1) (now s1)) s1) as (s' & Hs' & _); [| |eauto].
  - intros e rest x (Hkx & Hixx & Hnd & Hin). apply NoDup_cons in Hnd as [Hnotin Hnd]. destruct e as [t a].
    assert (He : (t, a) ∈ node_q x) by (apply Hin; left).
    destruct (proj1 (act_iat_spec x a t) (proj1 (Hixx t a) He)) as (n & Hn & Hiat).
    assert (Hstep : exists x', node_expire_one x (t, a) = Ok x').
    { unfold node_expire_one, get_node. simpl. rewrite Hn. unfold set_node. simpl. eauto. }
    destruct Hstep as [x' Hx']. exists x'. split; [exact Hx'|].
    destruct (node_expire_one_fields x (t, a) x' n Hkx Hn Hx') as [M1 M2]. simpl in M2.
    pose proof (kinv_node_expire_one _ _ _ Hkx Hx') as Hkx'. pose proof (idx_node_expire_one _ _ _ Hkx Hixx Hx') as Hixx'.
    split; [exact Hkx'|]. split; [exact Hixx'|]. split; [exact Hnd|].
    apply (queue_rest nd_inactive_at (node_act x) (node_act x') (node_q x) _ t a n rest); try assumption.
    + intros t0 k0. rewrite (Hixx t0 k0). apply act_iat_spec.
    + intros t0 k0. rewrite (Hixx' t0 k0). apply act_iat_spec.
    + intros k' Hne. rewrite M2. apply lookup_delete_ne. congruence.
    + intros e He'. apply Hin. right. exact He'.
  - split; [exact Hk1|]. split; [exact Hix1|]. split; [apply NoDup_due_a|]. intros e He. apply elem_of_due_a in He. tauto.
Qed.

Lemma hook_inv_node_end_block s s' : hook_inv s -> node_end_block s = Ok s' -> hook_inv s' /\ now s' = now s.
Proof.
  intros [Hl Hq Hg Hm Hr] H. pose proof (node_end_block_keeps _ _ H) as Hk. destruct Hl as [[A B C D E] Hp Hlk].
  split; [|exact (keeps_now _ _ _ Hk eq_refl)]. split; [split; [split|..]|..].
  - eapply kinv_node_end_block; eauto.
  - eapply idx_sess_keeps; eauto.
  - eapply idx_node_end_block; eauto.
  - eapply idx_sub_keeps; eauto.
  - eapply idx_plan_keeps_le; [exact Hk|reflexivity|eapply has_node_mono_end_block; exact H|eapply prov_le_keeps; [exact Hk|reflexivity]|exact E].
  - rewrite (proj1 (keeps_par _ _ _ Hk eq_refl)). exact Hp.
  - eapply link_keeps; eauto.
  - eapply quota_inv_keeps; eauto.
  - eapply ledger_inv_keeps; eauto.
  - eapply (money_inv_keeps [GNode]); eauto.
  - eapply range_node_end_block; eauto.
Qed.

Lemma mint_begin_block_total s : range_inv s -> exists s', mint_begin_block s = Ok s'.
Proof.
  intros Hr. unfold mint_begin_block.
  assert (G : forall l x, now x = now s -> (forall it, it ∈ l -> mint_params_valid (inf_max it) (inf_min it) (inf_rate it) = true) ->
                          exists s', mint_loop l x = Ok s').
  { induction l as [|it l IH]; intros x Hn Hv; simpl; [eauto|].
    destruct (now x <? inf_ts it); [eauto|]. rewrite (Hv it ltac:(left)). simpl. apply IH; [exact Hn|].
    intros it' Hin. apply Hv. right. exact Hin. }
  apply G; [reflexivity|]. intros it Hin. unfold mint_items in Hin. apply elem_of_list_fmap in Hin as ([t it'] & -> & Hin).
  apply elem_of_sort_by, elem_of_map_to_list in Hin. eapply (rg_mint _ Hr); eauto.
Qed.

(** * the hooks of a block *)

Lemma hook_inv_clear s : hook_inv s -> hook_inv (clear_events s).
Proof.
  intros [Hl Hq Hg Hm Hr]. split.
  - apply life_clear. exact Hl.
  - eapply quota_inv_frame; [..|exact Hq]; reflexivity.
  - eapply ledger_inv_frame; [..|exact Hg]; reflexivity.
  - apply money_inv_clear. exact Hm.
  - apply range_clear. exact Hr.
Qed.

Lemma hook_inv_time s t : hook_inv s -> now s < t -> hook_inv (clear_events s <| now := t |>).
Proof.
  intros [Hl Hq Hg Hm Hr] Ht. assert (Hk : keeps [GNow] s (clear_events s <| now := t |>)) by keeps_conv.
  destruct Hl as [Hall Hp Hlk]. split; [split|..].
  - eapply all_idx_keeps; eauto.
  - exact Hp.
  - apply (link_mono s); auto. simpl. lia.
  - eapply quota_inv_keeps; eauto.
  - eapply ledger_inv_keeps; eauto.
  - eapply (money_inv_keeps [GNow]); eauto.
  - destruct Hr as [R1 R2 R3 R4 R5 R6]. split; auto.
Qed.

Theorem begin_block_total s t :
  hook_inv s -> now s < t -> exists s', begin_block (clear_events s <| now := t |>) = Ok s' /\ hook_inv s'.
Proof.
  intros Hh Ht. pose proof (hook_inv_time s t Hh Ht) as Hh0. set (s0 := clear_events s <| now := t |>) in *.
  unfold begin_block. destruct (mint_begin_block_total s0 (hk_range _ Hh0)) as [s1 Hs1]. rewrite Hs1. simpl.
  pose proof (mint_begin_block_keeps _ _ Hs1) as Hk.
  assert (Hh1 : hook_inv s1).
  { destruct Hh0 as [[Hall Hp Hlk] Hq Hg Hm Hr]. split; [split|..].
    - eapply all_idx_keeps; eauto.
    - rewrite (proj1 (keeps_par _ _ _ Hk eq_refl)). exact Hp.
    - eapply link_keeps; eauto.
    - eapply quota_inv_keeps; eauto.
    - eapply ledger_inv_keeps; eauto.
    - eapply (money_inv_keeps [GMint]); eauto.
    - eapply range_mint_begin_block; eauto. }
  destruct (sub_begin_block_total s1 Hh1) as (s' & Hs' & Hh'). eauto.
Qed.

Theorem end_block_total s : hook_inv s -> exists s', end_block (clear_events s) = Ok s' /\ hook_inv s' /\ now s' = now s.
Proof.
  intros Hh. pose proof (hook_inv_clear _ Hh) as Hh0.
  unfold end_block.
  destruct (node_end_block_total (clear_events s) (ai_k _ (lf_idx _ (hk_life _ Hh0))) (ai_node _ (lf_idx _ (hk_life _ Hh0)))) as [s1 Hs1].
  rewrite Hs1. simpl. destruct (hook_inv_node_end_block _ _ Hh0 Hs1) as [Hh1 N1].
  destruct (session_end_block_total s1 Hh1) as (s2 & Hs2 & Hh2 & Hf2 & N2). rewrite Hs2. simpl.
  destruct (sub_end_block_total s2 Hh2 Hf2) as (s3 & Hs3 & Hh3 & N3). exists s3. split; [exact Hs3|]. split; [exact Hh3|].
  rewrite N3, N2, N1. reflexivity.
Qed.
