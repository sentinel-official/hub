(* C02: the escrow ledger invariant with the Section hypotheses of Ledger2.v discharged by the
   index-invariant preservation lemmas of IndexSub2.v.  Kept apart from Ledger1-3 so that those
   do not depend on IndexSub2.v. *)
From Hub Require Import Base.Prelude Base.Arith Model.Types Model.Keeper Model.Handlers Model.Hooks Model.Step.
From Hub Require Import Proofs.Tactics Proofs.Frames Proofs.KeysInv Proofs.Quota Proofs.InvDefs.
From Hub Require Import Proofs.IndexSub Proofs.IndexSub2 Proofs.Ledger1 Proofs.Ledger2 Proofs.Ledger3.

Lemma lc_idx_payout_step s e s' :
  kinv s -> quota_inv s -> idx_sub s -> ledger_inv s -> e ∈ pay_q s -> payout_step s e = Ok s' -> idx_sub s'.
Proof. intros Hk _ Hx _ He H. eapply IndexSub2.idx_payout_step; eauto. apply Hk. Qed.

Lemma lc_idx_session_expire_one s e s' :
  kinv s -> quota_inv s -> idx_sub s -> ledger_inv s -> session_expire_one s e = Ok s' -> idx_sub s'.
Proof. intros Hk _ Hx _ H. eapply idx_sub_session_expire_one; eauto. Qed.

Lemma lc_idx_sub_expire_one s e s' :
  kinv s -> quota_inv s -> idx_sub s -> ledger_inv s -> sub_expire_one s e = Ok s' -> idx_sub s'.
Proof. intros Hk _ Hx _ H. eapply IndexSub2.idx_sub_expire_one; eauto. Qed.

Lemma lc_idx_step s o s' :
  kinv s -> quota_inv s -> idx_sub s -> ledger_inv s -> step s o = OOk s' -> idx_sub s'.
Proof. intros Hk _ Hx _ H. eapply IndexSub2.idx_sub_step; eauto. Qed.

(* the combined invariant (key agreement, quota, index/structure, ledger) is inductive *)
Theorem linv_step_closed s o s' : linv s -> step s o = OOk s' -> linv s'.
Proof. exact (linv_step lc_idx_payout_step lc_idx_session_expire_one lc_idx_sub_expire_one lc_idx_step s o s'). Qed.

Theorem ledger_step_closed s o s' :
  kinv s -> quota_inv s -> idx_sub s -> ledger_inv s -> step s o = OOk s' -> ledger_inv s'.
Proof. exact (ledger_step lc_idx_payout_step lc_idx_session_expire_one lc_idx_sub_expire_one s o s'). Qed.

Theorem linv_reachable g ops s' : run (init g) ops = RunOk s' -> linv s'.
Proof.
  intros H.
  eapply (linv_run lc_idx_payout_step lc_idx_session_expire_one lc_idx_sub_expire_one lc_idx_step ops (init g) 0%nat s'); [|exact H].
  split; [apply kinv_init|split; [apply quota_inv_init|split; [apply idx_sub_init|apply ledger_init]]].
Qed.

(* the ledger equation holds after every operation of every history from genesis *)
Theorem ledger_reachable g ops s' : run (init g) ops = RunOk s' -> ledger_inv s'.
Proof. intros H. apply (linv_reachable g ops s' H). Qed.

Theorem ledger_begin_block_closed s s' : linv s -> begin_block s = Ok s' -> linv s'.
Proof. exact (linv_begin_block lc_idx_payout_step s s'). Qed.
Theorem ledger_end_block_closed s s' : linv s -> end_block s = Ok s' -> linv s'.
Proof. exact (linv_end_block lc_idx_session_expire_one lc_idx_sub_expire_one s s'). Qed.

(* C02 at reachable states, without invariant premises *)
Corollary reachable_never_overcharged g ops s id sb n gb h dep :
  run (init g) ops = RunOk s -> subs s !! id = Some sb -> sb_kind sb = KNode n gb h dep ->
  forall a d, 0 <= unsettled s a d sb <= dep.2.
Proof.
  intros H Hsb Hkd. destruct (linv_reachable _ _ _ H) as (A & _ & C & D).
  eapply never_overcharged; eauto.
Qed.

Corollary reachable_ledger_equation g ops s a d :
  run (init g) ops = RunOk s -> amount_of (dep_of s a) d = ledger_total s a d.
Proof. intros H. apply (lg_eq _ (ledger_reachable _ _ _ H)). Qed.

