(* bech32 checksum (Base/Bech32.v): polymod is affine over GF(2), hence the six symbols
   Encode appends make VerifyChecksum succeed, for every human-readable part and data. *)
From Coq Require Import Btauto.
From Hub Require Import Base.Prelude Base.Bytes Base.Bech32 Proofs.BytesThm.
From Coq Require Import ZifyN ZifyNat ZifyBool.
Local Open Scope N_scope.

(* ------------------------------------------------------------------------- *)
(* small numbers                                                               *)
(* ------------------------------------------------------------------------- *)
Lemma high_bits_of_lt_pow2 x n m : x < 2 ^ n -> n <= m -> N.testbit x m = false.
Proof.
  intros Hx Hm. destruct (N.eq_dec x 0) as [->|Hne]; [apply N.bits_0|].
  apply N.bits_above_log2. apply N.log2_lt_pow2 in Hx; lia.
Qed.

Lemma lt_pow2_of_high_bits x n : (forall m, n <= m -> N.testbit x m = false) -> x < 2 ^ n.
Proof.
  intros H. destruct (N.lt_ge_cases x (2 ^ n)) as [Hlt|Hge]; [exact Hlt|exfalso].
  assert (Hne : x <> 0) by (assert (0 < 2 ^ n) by (apply N.neq_0_lt_0, N.pow_nonzero; discriminate); lia).
  assert (Hl : n <= N.log2 x) by (apply N.log2_le_pow2; lia).
  assert (Hb := N.bit_log2 x Hne). rewrite (H _ Hl) in Hb. discriminate.
Qed.

Definition small30 (x : N) : Prop := forall m, 30 <= m -> N.testbit x m = false.

Lemma small30_lt x : x < 2 ^ 30 -> small30 x.
Proof. intros H m Hm. apply (high_bits_of_lt_pow2 x 30 m H Hm). Qed.

Lemma small30_lxor a b : small30 a -> small30 b -> small30 (N.lxor a b).
Proof. intros Ha Hb m Hm. rewrite N.lxor_spec, Ha, Hb by exact Hm. reflexivity. Qed.

Lemma small30_sel b i g : g < 2 ^ 30 -> small30 (sel b i g).
Proof. intros Hg. unfold sel. destruct (N.testbit b i); [apply small30_lt, Hg|intros m _; apply N.bits_0]. Qed.

Lemma small30_gen_mix b : small30 (gen_mix b).
Proof.
  unfold gen_mix. repeat apply small30_lxor; apply small30_sel; reflexivity.
Qed.

Lemma MASK25_ones : MASK25 = N.ones 25.
Proof. reflexivity. Qed.

(* whatever the state, one round with a small value yields a 30-bit state *)
Lemma small30_pm_step chk v : small30 v -> small30 (pm_step chk v).
Proof.
  intros Hv. unfold pm_step. apply small30_lxor; [apply small30_lxor; [|exact Hv]|apply small30_gen_mix].
  intros m Hm. rewrite N.shiftl_spec_high' by lia. rewrite N.land_spec, MASK25_ones.
  rewrite (N.ones_spec_high 25 (m - 5)) by lia. apply andb_false_r.
Qed.

(* ------------------------------------------------------------------------- *)
(* polymod is affine over GF(2)                                                *)
(* ------------------------------------------------------------------------- *)
Definition Lin (c : N) : N := pm_step c 0.

Lemma pm_step_Lin c v : pm_step c v = N.lxor (Lin c) v.
Proof.
  unfold Lin, pm_step. apply N.bits_inj. intros n. rewrite !N.lxor_spec, N.bits_0. btauto.
Qed.

Lemma sel_lxor p q i g : sel (N.lxor p q) i g = N.lxor (sel p i g) (sel q i g).
Proof.
  unfold sel. rewrite N.lxor_spec.
  destruct (N.testbit p i), (N.testbit q i); cbn [xorb];
    rewrite ?N.lxor_nilpotent, ?N.lxor_0_r, ?N.lxor_0_l; reflexivity.
Qed.

Lemma gen_mix_lxor p q : gen_mix (N.lxor p q) = N.lxor (gen_mix p) (gen_mix q).
Proof.
  unfold gen_mix. rewrite !sel_lxor. apply N.bits_inj. intros n. rewrite !N.lxor_spec. btauto.
Qed.

Lemma land_lxor_l a b m : N.land (N.lxor a b) m = N.lxor (N.land a m) (N.land b m).
Proof. apply N.bits_inj. intros n. rewrite !N.lxor_spec, !N.land_spec, N.lxor_spec. btauto. Qed.

Lemma Lin_lxor a b : Lin (N.lxor a b) = N.lxor (Lin a) (Lin b).
Proof.
  unfold Lin, pm_step. rewrite !N.lxor_0_r, land_lxor_l, N.shiftl_lxor, N.shiftr_lxor, gen_mix_lxor.
  apply N.bits_inj. intros n. rewrite !N.lxor_spec. btauto.
Qed.

Lemma fold_affine l : forall c d,
  fold_left pm_step l (N.lxor c d) = N.lxor (fold_left pm_step l c) (fold_left pm_step (map (fun _ => 0) l) d).
Proof.
  induction l as [|v l IH]; intros c d; [reflexivity|].
  cbn [fold_left map]. rewrite <- IH. f_equal.
  rewrite !pm_step_Lin, Lin_lxor, N.lxor_0_r.
  apply N.bits_inj. intros n. rewrite !N.lxor_spec. btauto.
Qed.

(* ------------------------------------------------------------------------- *)
(* feeding the six checksum symbols                                            *)
(* ------------------------------------------------------------------------- *)
Lemma gen_mix_0 : gen_mix 0 = 0.
Proof. reflexivity. Qed.

Lemma lxor_shift_add x v : v < 32 -> N.lxor (N.shiftl x 5) v = x * 32 + v.
Proof.
  intros Hv. rewrite N.shiftl_mul_pow2. change (2 ^ 5) with 32.
  symmetry. apply N.add_nocarry_lxor. apply N.bits_inj. intros n.
  rewrite N.land_spec, N.bits_0.
  destruct (N.lt_ge_cases n 5) as [Hn|Hn].
  - change 32 with (2 ^ 5). rewrite N.mul_pow2_bits_low by exact Hn. reflexivity.
  - rewrite (high_bits_of_lt_pow2 v 5 n) by (assumption || exact Hv). apply andb_false_r.
Qed.

Lemma pm_step_small x v : x < 2 ^ 25 -> v < 32 -> pm_step x v = x * 32 + v.
Proof.
  intros Hx Hv. unfold pm_step.
  rewrite MASK25_ones, N.land_ones, N.mod_small by exact Hx.
  rewrite N.shiftr_div_pow2, N.div_small by exact Hx.
  rewrite gen_mix_0, N.lxor_0_r. apply lxor_shift_add, Hv.
Qed.

Definition chunks (pm : N) : list N :=
  map (fun i => N.land (N.shiftr pm (5 * (5 - i))) 31) [0; 1; 2; 3; 4; 5].

Lemma chunk_eq pm k : N.land (N.shiftr pm (5 * k)) 31 = (pm / 32 ^ k) mod 32.
Proof.
  change 31 with (N.ones 5). rewrite N.land_ones, N.shiftr_div_pow2.
  rewrite N.pow_mul_r. reflexivity.
Qed.

Lemma chunks_digits pm : chunks pm = digits 32 0 6 pm.
Proof. unfold chunks. cbn [map]. rewrite !chunk_eq. reflexivity. Qed.

(* while the state stays below 2^30 no generator is mixed in, and feeding a base-32
   numeral is Horner's rule *)
Lemma fold_pm_digits k : forall n acc,
  acc * 32 ^ N.of_nat k + n mod 32 ^ N.of_nat k < 2 ^ 30 ->
  fold_left pm_step (digits 32 0 k n) acc = acc * 32 ^ N.of_nat k + n mod 32 ^ N.of_nat k.
Proof.
  induction k as [|k IH]; intros n acc.
  - intros _. cbn. rewrite N.mod_1_r. ring.
  - assert (HP : 32 ^ N.of_nat k <> 0) by (apply N.pow_nonzero; discriminate).
    rewrite pow_succ_nat, <- (digit_step 32 _ n acc HP) by discriminate. intros Hlt.
    cbn [digits fold_left N.add]. rewrite pm_step_small.
    + apply IH, Hlt.
    + (* acc * 32 <= (acc * 32 + d) * 32^k + r < 2^30 *)
      apply (N.mul_lt_mono_pos_r 32); [reflexivity|]. change (2 ^ 25 * 32) with (2 ^ 30).
      eapply N.le_lt_trans; [|exact Hlt].
      etransitivity; [|apply N.le_add_r]. etransitivity; [apply N.le_add_r|].
      rewrite <- (N.mul_1_r (_ + _)) at 1. apply N.mul_le_mono_l. lia.
    + apply N.mod_lt. discriminate.
Qed.

Lemma fold_chunks pm : pm < 2 ^ 30 -> fold_left pm_step (chunks pm) 0 = pm.
Proof.
  intros Hpm. change (2 ^ 30) with (32 ^ N.of_nat 6) in Hpm.
  rewrite chunks_digits, fold_pm_digits; rewrite N.mul_0_l, N.add_0_l, N.mod_small by exact Hpm; [reflexivity|exact Hpm].
Qed.

(* the checksum Encode appends is accepted by VerifyChecksum: for every human-readable
   part and every data part *)
Theorem checksum_verifies hrp data : polymod hrp data (checksum hrp data) = 1.
Proof.
  unfold polymod, checksum. fold (chunks (N.lxor (polymod hrp data ZERO6) 1)).
  set (X := hrp_expand hrp ++ data).
  assert (HP : polymod hrp data ZERO6 = fold_left pm_step ZERO6 (fold_left pm_step X 1)).
  { unfold polymod, X. rewrite app_assoc, fold_left_app. reflexivity. }
  rewrite app_assoc, fold_left_app. fold X. set (c0 := fold_left pm_step X 1) in *.
  set (P := polymod hrp data ZERO6) in *.
  assert (HPs : small30 P).
  { rewrite HP. unfold ZERO6. cbn [fold_left]. apply small30_pm_step. intros m _. apply N.bits_0. }
  assert (Hpm : N.lxor P 1 < 2 ^ 30).
  { apply lt_pow2_of_high_bits. apply small30_lxor; [exact HPs|]. apply small30_lt. reflexivity. }
  rewrite <- (N.lxor_0_l c0), fold_affine, fold_chunks by exact Hpm.
  change (map (fun _ : N => 0) (chunks (N.lxor P 1))) with ZERO6. rewrite <- HP.
  (* the goal is  P xor (P xor 1) = 1,  bit by bit *)
  apply N.bits_inj. intros n. rewrite !N.lxor_spec. btauto.
Qed.

