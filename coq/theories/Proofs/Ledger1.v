(* C02, part 1: the escrow ledger invariant [ledger_inv] (Proofs/InvDefs.v) -- arithmetic of the
   exact ceiling charge, the effect of the deposit keeper on the deposit
   records, and the general "one subscription changes" preservation lemma on which every
   per-function proof of Ledger2.v rests.  Also: the deposit record always covers the unsettled
   part of each single subscription ([ledger_bound], [ledger_covers]). *)
From Hub Require Import Base.Prelude Base.Arith Model.Types Model.Keeper Model.Handlers Model.Hooks Model.Step.
From Hub Require Import Proofs.Tactics Proofs.Frames Proofs.Money Proofs.KeysInv Proofs.ArithThm Proofs.InvDefs.

(** * the exact ceiling charge *)

(* whenever utils.AmountForBytes does not panic, its result is the exact ceiling of p*b/10^9
   (ArithThm.afb_exact_gen: under a range premise it does not panic) *)
Lemma afb_cases p b : 0 <= p -> 0 <= b -> amount_for_bytes p b = Panic \/ amount_for_bytes p b = Ok (afb p b).
Proof.
  intros Hp Hb.
  pose proof GB_pos. pose proof P18_pos. pose proof P18_GB as HP.
  unfold amount_for_bytes, dec_quo_int, dec_of_int.
  assert (Hq : Z.quot (p * P18) GB = p * GB).
  { rewrite HP. replace (p * (GB * GB)) with (p * GB * GB) by ring. apply Z.quot_mul. lia. }
  rewrite Hq.
  assert (Hprod : b * P18 * (p * GB) = (p * b * GB) * P18) by ring.
  unfold dec_mul. rewrite Hprod.
  assert (0 <= p * b * GB) by nia.
  rewrite chop_round_exact by lia.
  destruct (Z.abs (p * b * GB) <? MAXDEC) eqn:E; [|left; reflexivity].
  cbn [rbind].
  set (x := p * b * GB) in *.
  unfold dec_ceil.
  rewrite Z.quot_div_nonneg, Z.rem_mod_nonneg by lia.
  pose proof (Z.div_mod x P18 ltac:(lia)) as Hdm.
  pose proof (Z.mod_pos_bound x P18 ltac:(lia)) as Hmb.
  assert (Hdiv : x / P18 = (p * b) / GB).
  { unfold x. rewrite HP. rewrite <- Z.div_div by lia. rewrite Z.div_mul by lia. reflexivity. }
  assert (Hmod : x mod P18 = GB * ((p * b) mod GB)).
  { unfold x. rewrite HP. rewrite (Z.mul_comm (p * b) GB). rewrite Z.mul_mod_distr_l by lia. reflexivity. }
  pose proof (Z.div_mod (p * b) GB ltac:(lia)) as Hdm2.
  pose proof (Z.mod_pos_bound (p * b) GB ltac:(lia)) as Hmb2.
  assert (0 <= p * b) by nia.
  unfold afb.
  destruct (x mod P18 <=? 0) eqn:Er.
  - cbn [rbind]. unfold dec_truncate_int. rewrite Z.quot_mul by lia.
    unfold chk. destruct (fits _); [|left; reflexivity]. right. f_equal.
    rewrite Hdiv. symmetry. apply cdiv_unique; [lia|]. nia.
  - destruct (Z.abs x <? MAXDEC1) eqn:E2; [|left; reflexivity].
    cbn [rbind]. unfold dec_truncate_int. rewrite Z.quot_mul by lia.
    unfold chk. destruct (fits _); [|left; reflexivity]. right. f_equal.
    rewrite Hdiv. symmetry. apply cdiv_unique; [lia|]. nia.
Qed.

Theorem afb_ok_exact p b r : 0 <= p -> 0 <= b -> amount_for_bytes p b = Ok r -> r = afb p b.
Proof.
  intros Hp Hb H. destruct (afb_cases p b Hp Hb) as [E|E]; rewrite E in H; [discriminate|].
  injection H as <-. reflexivity.
Qed.

Lemma afb_0 p : afb p 0 = 0.
Proof. unfold afb. rewrite Z.mul_0_r. apply cdiv_0, GB_pos. Qed.

Lemma afb_nonneg p b : 0 <= p -> 0 <= b -> 0 <= afb p b.
Proof. intros. unfold afb. apply cdiv_nonneg; [apply GB_pos|nia]. Qed.

Lemma afb_le_mono p b b' : 0 <= p -> b <= b' -> afb p b <= afb p b'.
Proof. intros. unfold afb. apply cdiv_mono; [apply GB_pos|nia]. Qed.

Lemma afb_whole p g : afb p (GB * g) = p * g.
Proof. unfold afb. replace (p * (GB * g)) with (GB * (p * g)) by ring. apply cdiv_exact, GB_pos. Qed.

Lemma quot_nonneg d g : 0 <= d -> 0 < g -> 0 <= Z.quot d g.
Proof. intros. apply Z.quot_pos; lia. Qed.

(* the charge for all the bytes bought at the per-gigabyte price deposit/gigabytes never exceeds the deposit *)
Lemma afb_full d g : 0 <= d -> 0 < g -> afb (Z.quot d g) (GB * g) <= d.
Proof.
  intros Hd Hg. rewrite afb_whole. rewrite Z.quot_div_nonneg by lia.
  pose proof (Z.mul_div_le d g Hg). lia.
Qed.

Lemma afb_within d g u : 0 <= d -> 0 < g -> u <= GB * g -> afb (Z.quot d g) u <= d.
Proof.
  intros Hd Hg Hu. etransitivity; [apply (afb_le_mono _ u (GB * g)); [apply quot_nonneg; lia|exact Hu]|].
  apply afb_full; lia.
Qed.

Lemma quot_mul_le d h k : 0 <= d -> 0 < h -> 0 <= k <= h -> Z.quot d h * k <= d.
Proof.
  intros Hd Hh Hk. rewrite Z.quot_div_nonneg by lia.
  pose proof (Z.mul_div_le d h Hh). assert (0 <= d / h) by (apply Z.div_pos; lia). nia.
Qed.

(** * the deposit records under the deposit keeper *)

(* the amount of denomination [d] in the deposit record of account [a] *)
Definition damt (s : state) (a : addr) (d : denom) : Z := amount_of (dep_of s a) d.
(* [amt] if (x, d') is the (account, denomination) being moved, otherwise 0 *)
Definition dlt (a : addr) (d : denom) (amt : Z) (x : addr) (d' : denom) : Z :=
  if bool_decide (x = a /\ d' = d) then amt else 0.

Lemma dlt_add a d u v x d' : dlt a d u x d' + dlt a d v x d' = dlt a d (u + v) x d'.
Proof. unfold dlt. case_bool_decide; lia. Qed.

Lemma dlt_opp a d v x d' : dlt a d (- v) x d' = - dlt a d v x d'.
Proof. unfold dlt. case_bool_decide; lia. Qed.

Lemma damt_frame s s' : deposits s' = deposits s -> forall x d, damt s' x d = damt s x d.
Proof. intros E x d. unfold damt, dep_of. rewrite E. reflexivity. Qed.

Lemma transfer_damt s s' f t d amt r v :
  transfer s s' f t d amt r v -> forall x d', damt s' x d' = damt s x d' + dlt r d v x d'.
Proof. exact (tr_dep s s' f t d amt r v). Qed.

Lemma z_dep_to_module_damt s from m c s' :
  z_dep_to_module s from m c = Ok s' -> forall x d', damt s' x d' = damt s x d' - dlt from c.1 c.2 x d'.
Proof. intros H x d'. rewrite (transfer_damt _ _ _ _ _ _ _ _ (z_dep_to_module_transfer _ _ _ _ _ H)), dlt_opp. lia. Qed.

Lemma z_dep_to_account_damt s from t c s' :
  z_dep_to_account s from t c = Ok s' -> forall x d', damt s' x d' = damt s x d' - dlt from c.1 c.2 x d'.
Proof. intros H x d'. rewrite (transfer_damt _ _ _ _ _ _ _ _ (z_dep_to_account_transfer _ _ _ _ _ H)), dlt_opp. lia. Qed.

Lemma z_dep_add_damt s a c s' :
  z_dep_add s a c = Ok s' -> forall x d', damt s' x d' = damt s x d' + dlt a c.1 c.2 x d'.
Proof. intros H. exact (transfer_damt _ _ _ _ _ _ _ _ (z_dep_add_transfer _ _ _ _ H)). Qed.

Lemma pay_damt s s2 s3 s' f m t d fee rest from :
  transfer s s2 f m d fee from (- fee) -> transfer s2 s3 f t d rest from (- rest) -> deposits s' = deposits s3 ->
  forall x d', damt s' x d' = damt s x d' - dlt from d (fee + rest) x d'.
Proof.
  intros T1 T2 E x d'. rewrite (damt_frame _ _ E), (transfer_damt _ _ _ _ _ _ _ _ T2), (transfer_damt _ _ _ _ _ _ _ _ T1).
  rewrite !dlt_opp, <- dlt_add. lia.
Qed.

(* a debit within the recorded amount is never refused by the deposit keeper *)
Lemma dep_remaining_ok s a d amt :
  0 < amt <= damt s a d -> exists c, dep_remaining s a d amt = Ok c.
Proof.
  intros Hamt. unfold dep_remaining, damt, dep_of in *.
  destruct (deposits s !! a) as [dep|]; simpl in Hamt.
  - destruct (amount_of dep d - amt <? 0) eqn:E; [lia|eauto].
  - rewrite amount_of_empty in Hamt. lia.
Qed.

(** * the part of the state the ledger reads *)

Lemma unsettled_same s s' a d sb :
  allocs s' !! (sb_id sb, sb_addr sb) = allocs s !! (sb_id sb, sb_addr sb) ->
  payouts s' !! sb_id sb = payouts s !! sb_id sb ->
  unsettled s' a d sb = unsettled s a d sb.
Proof. intros E1 E2. unfold unsettled. rewrite E1, E2. reflexivity. Qed.

Lemma unsettled_core s a d sb sb' :
  sb_kind sb' = sb_kind sb -> sb_addr sb' = sb_addr sb -> sb_id sb' = sb_id sb ->
  unsettled s a d sb' = unsettled s a d sb.
Proof. intros E1 E2 E3. unfold unsettled. rewrite E1, E2, E3. reflexivity. Qed.

Lemma unsettled_plan s a d sb p dn : sb_kind sb = KPlan p dn -> unsettled s a d sb = 0.
Proof. intros E. unfold unsettled. rewrite E. reflexivity. Qed.

Lemma unsettled_hourly s a d sb n g h dep po :
  sb_kind sb = KNode n g h dep -> h <> 0 -> payouts s !! sb_id sb = Some po ->
  unsettled s a d sb = if bool_decide (sb_addr sb = a /\ dep.1 = d) then (po_price po).2 * po_hours po else 0.
Proof.
  intros E Hh Hp. unfold unsettled. rewrite E, Hp. apply Z.eqb_neq in Hh. rewrite Hh. reflexivity.
Qed.

Lemma unsettled_metered s a d sb n g dep al :
  sb_kind sb = KNode n g 0 dep -> allocs s !! (sb_id sb, sb_addr sb) = Some al ->
  unsettled s a d sb =
    if bool_decide (sb_addr sb = a /\ dep.1 = d) then dep.2 - afb (Z.quot dep.2 g) (al_used al) else 0.
Proof. intros E Hal. unfold unsettled. rewrite E, Hal. reflexivity. Qed.

Lemma dlt_test (x a : addr) (e d : denom) v : (if bool_decide (x = a /\ e = d) then v else 0) = dlt x e v a d.
Proof. unfold dlt. rewrite (bool_decide_ext (x = a /\ e = d) (a = x /\ d = e)) by (split; intros [-> ->]; auto). reflexivity. Qed.

Lemma unsettled_hourly_dlt s a d sb n g h dep po :
  sb_kind sb = KNode n g h dep -> h <> 0 -> payouts s !! sb_id sb = Some po ->
  unsettled s a d sb = dlt (sb_addr sb) dep.1 ((po_price po).2 * po_hours po) a d.
Proof. intros E Hh Hp. rewrite (unsettled_hourly s a d sb n g h dep po E Hh Hp). apply dlt_test. Qed.

Lemma unsettled_metered_dlt s a d sb n g dep al :
  sb_kind sb = KNode n g 0 dep -> allocs s !! (sb_id sb, sb_addr sb) = Some al ->
  unsettled s a d sb = dlt (sb_addr sb) dep.1 (dep.2 - afb (Z.quot dep.2 g) (al_used al)) a d.
Proof. intros E Hal. rewrite (unsettled_metered s a d sb n g dep al E Hal). apply dlt_test. Qed.

(* an account only has unsettled parts in subscriptions it owns *)
Lemma unsettled_other s a d sb : sb_addr sb <> a -> unsettled s a d sb = 0.
Proof.
  intros Hne. unfold unsettled. destruct (sb_kind sb); [|reflexivity].
  rewrite bool_decide_eq_false_2; [reflexivity|]. intros [? _]. contradiction.
Qed.

(* the three per-subscription clauses of [ledger_inv] *)
Definition sub_ok (s : state) (id : Z) (sb : subscription) : Prop :=
  (forall a d, 0 <= unsettled s a d sb) /\
  (forall n g h dep al, sb_kind sb = KNode n g h dep -> h = 0 -> allocs s !! (id, sb_addr sb) = Some al ->
     al_granted al = GB * g /\ 0 <= al_used al <= al_granted al) /\
  (forall n g h dep po, sb_kind sb = KNode n g h dep -> h <> 0 -> payouts s !! id = Some po ->
     po_price po = (dep.1, Z.quot dep.2 h) /\ 0 <= po_hours po <= h).

Lemma ledger_sub_ok s id sb : ledger_inv s -> subs s !! id = Some sb -> sub_ok s id sb.
Proof.
  intros [A B C D] Hsb. split; [|split].
  - intros a d. eapply B; eauto.
  - intros n g h dep al. eapply C; eauto.
  - intros n g h dep po. eapply D; eauto.
Qed.

Lemma ledger_inv_intro s :
  (forall a d, damt s a d = ledger_total s a d) ->
  (forall id sb, subs s !! id = Some sb -> sub_ok s id sb) -> ledger_inv s.
Proof.
  intros A B. split.
  - exact A.
  - intros id sb a d Hsb. apply (B _ _ Hsb).
  - intros id sb n g h dep al Hsb. apply (B _ _ Hsb).
  - intros id sb n g h dep po Hsb. apply (B _ _ Hsb).
Qed.

Lemma sub_ok_same s s' id sb :
  sb_id sb = id ->
  allocs s' !! (id, sb_addr sb) = allocs s !! (id, sb_addr sb) -> payouts s' !! id = payouts s !! id ->
  sub_ok s id sb -> sub_ok s' id sb.
Proof.
  intros Eid E1 E2 (A & B & C). split; [|split].
  - intros a d. rewrite (unsettled_same s s'); [apply A|rewrite Eid; exact E1|rewrite Eid; exact E2].
  - intros n g h dep al. rewrite E1. apply B.
  - intros n g h dep po. rewrite E2. apply C.
Qed.

Lemma sub_ok_core s id sb sb' :
  sb_kind sb' = sb_kind sb -> sb_addr sb' = sb_addr sb -> sb_id sb' = sb_id sb -> sub_ok s id sb -> sub_ok s id sb'.
Proof.
  intros E1 E2 E3 (A & B & C). split; [|split].
  - intros a d. rewrite (unsettled_core s a d sb sb') by assumption. apply A.
  - intros n g h dep al. rewrite E1, E2. apply B.
  - intros n g h dep po. rewrite E1. apply C.
Qed.

Lemma ledger_inv_frame s s' :
  deposits s' = deposits s -> subs s' = subs s -> allocs s' = allocs s -> payouts s' = payouts s ->
  ledger_inv s -> ledger_inv s'.
Proof.
  intros E1 E2 E3 E4 Hl. apply ledger_inv_intro.
  - intros a d. rewrite (damt_frame s s' E1). unfold ledger_total. rewrite E2.
    rewrite (msum_ext (unsettled s' a d) (unsettled s a d)); [apply (lg_eq _ Hl)|].
    intros k v _. apply unsettled_same; rewrite ?E3, ?E4; reflexivity.
  - intros id sb Hsb. rewrite E2 in Hsb. pose proof (ledger_sub_ok _ _ _ Hl Hsb) as (A & B & C).
    split; [|split].
    + intros a d. rewrite (unsettled_same s s'); [apply A|rewrite E3; reflexivity|rewrite E4; reflexivity].
    + intros n g h dep al. rewrite E3. apply B.
    + intros n g h dep po. rewrite E4. apply C.
Qed.

Lemma ledger_inv_keeps T s s' :
  keeps T s s' -> touched GDep T = false -> touched GSub T = false -> ledger_inv s -> ledger_inv s'.
Proof.
  intros K T1 T2. destruct (keeps_sub _ _ _ K T2) as (_ & Es & _ & _ & _ & _ & Ea & Ep & _).
  exact (ledger_inv_frame s s' (keeps_dep _ _ _ K T1) Es Ea Ep).
Qed.

(** * one subscription changes: the general preservation lemma *)

Lemma unsettled_elsewhere s s' id sb :
  kinv_sub s -> subs s !! id = Some sb ->
  allocs s' !! (id, sb_addr sb) = allocs s !! (id, sb_addr sb) -> payouts s' !! id = payouts s !! id ->
  forall a d, unsettled s' a d sb = unsettled s a d sb.
Proof.
  intros Hk Hsb Ha Hp a d. destruct (k_sub _ Hk _ _ Hsb) as (Eid & _). apply unsettled_same; rewrite Eid; assumption.
Qed.

Lemma ledger_total_change s s' a d id0 :
  (forall i, i <> id0 -> unsettled s' a d <$> subs s' !! i = unsettled s a d <$> subs s !! i) ->
  ledger_total s' a d =
    ledger_total s a d - from_option (unsettled s a d) 0 (subs s !! id0) + from_option (unsettled s' a d) 0 (subs s' !! id0).
Proof.
  intros Hoth. unfold ledger_total.
  rewrite (msum_fmap (unsettled s a d)), (msum_fmap (unsettled s' a d)).
  set (M := unsettled s a d <$> subs s). set (M' := unsettled s' a d <$> subs s').
  assert (E : delete id0 M' = delete id0 M).
  { apply map_eq. intros i. destruct (decide (i = id0)) as [->|Hne]; [rewrite !lookup_delete; reflexivity|].
    rewrite !lookup_delete_ne by congruence. unfold M, M'. rewrite !lookup_fmap. apply Hoth. exact Hne. }
  pose proof (msum_delete' (fun z : Z => z) M' id0) as H1. pose proof (msum_delete' (fun z : Z => z) M id0) as H2.
  rewrite E in H1. unfold M, M' in H1, H2. rewrite !lookup_fmap in H1, H2.
  fold M in H1, H2. fold M' in H1.
  destruct (subs s !! id0), (subs s' !! id0); simpl in *; lia.
Qed.

(* everything the ledger reads about subscriptions other than [id0] is unchanged, the deposit
   records move by [dl], and so does the unsettled part of [id0] (created, updated or removed) *)
Lemma ledger_inv_change s s' id0 (dl : addr -> denom -> Z) :
  kinv_sub s -> ledger_inv s ->
  (forall i, i <> id0 -> subs s' !! i = subs s !! i) ->
  (forall i a, i <> id0 -> allocs s' !! (i, a) = allocs s !! (i, a)) ->
  (forall i, i <> id0 -> payouts s' !! i = payouts s !! i) ->
  (forall a d, damt s' a d = damt s a d + dl a d) ->
  (forall a d, from_option (unsettled s' a d) 0 (subs s' !! id0) =
               from_option (unsettled s a d) 0 (subs s !! id0) + dl a d) ->
  (forall sb', subs s' !! id0 = Some sb' -> sub_ok s' id0 sb') ->
  ledger_inv s'.
Proof.
  intros Hk Hl Hs Ha Hp Hd Hu Hok. apply ledger_inv_intro.
  - intros a d. rewrite Hd, (ledger_total_change s s' a d id0).
    + rewrite Hu. pose proof (lg_eq _ Hl a d) as E. fold (damt s a d) in E. lia.
    + intros i Hne. rewrite Hs by exact Hne. destruct (subs s !! i) as [sb|] eqn:Hsb; simpl; [|reflexivity].
      f_equal. exact (unsettled_elsewhere s s' i sb Hk Hsb (Ha _ _ Hne) (Hp _ Hne) a d).
  - intros i sb Hsb. destruct (decide (i = id0)) as [->|Hne]; [apply Hok; exact Hsb|].
    rewrite Hs in Hsb by exact Hne. destruct (k_sub _ Hk _ _ Hsb) as (Eid & _).
    apply (sub_ok_same s s'); [exact Eid|apply Ha; exact Hne|apply Hp; exact Hne|].
    eapply ledger_sub_ok; eauto.
Qed.

(** * the record covers every single subscription (no cross-subsidy) *)

(* the unsettled part of one subscription never exceeds its owner's deposit record *)
Theorem ledger_bound s a d id sb :
  ledger_inv s -> subs s !! id = Some sb -> unsettled s a d sb <= damt s a d.
Proof.
  intros Hl Hsb. unfold damt. rewrite (lg_eq _ Hl). unfold ledger_total.
  apply (msum_ge_elem (unsettled s a d) (subs s) id sb); [|exact Hsb].
  intros k v Hk. eapply lg_nonneg; eauto.
Qed.

(* a debit of at most the unsettled part of the subscription being processed is never refused
   for lack of recorded funds *)
Theorem ledger_covers s a d id sb amt :
  ledger_inv s -> subs s !! id = Some sb -> 0 < amt <= unsettled s a d sb ->
  exists c, dep_remaining s a d amt = Ok c.
Proof.
  intros Hl Hsb Hamt. apply dep_remaining_ok. pose proof (ledger_bound s a d id sb Hl Hsb). lia.
Qed.

(* two successive debits (fee, then payee) whose sum is within the unsettled part *)
Theorem ledger_covers2 s a d id sb r1 r2 :
  ledger_inv s -> subs s !! id = Some sb -> 0 <= r1 -> 0 <= r2 -> r1 + r2 <= unsettled s a d sb ->
  (r1 <> 0 -> exists c, dep_remaining s a d r1 = Ok c) /\
  (forall s2, (forall x d', damt s2 x d' = damt s x d' - dlt a d r1 x d') ->
              r2 <> 0 -> exists c, dep_remaining s2 a d r2 = Ok c).
Proof.
  intros Hl Hsb H1 H2 Hsum. pose proof (ledger_bound s a d id sb Hl Hsb) as Hb. split.
  - intros Hne. apply dep_remaining_ok. lia.
  - intros s2 Hs2 Hne. apply dep_remaining_ok. rewrite Hs2. unfold dlt.
    rewrite bool_decide_eq_true_2 by auto. lia.
Qed.

(** * the structural facts about subscriptions used by the ledger proofs (part of [idx_sub]) *)

Record lstruct (s : state) : Prop := {
  ls_kind : forall id sb, subs s !! id = Some sb -> kind_ok (sb_kind sb);
  ls_alloc_sub : forall id a al, allocs s !! (id, a) = Some al ->
                 exists sb, subs s !! id = Some sb /\ hourly sb = false /\ (metered sb = true -> a = sb_addr sb);
  ls_pay_sub : forall id po, payouts s !! id = Some po ->
               0 <= po_hours po /\
               exists sb g h d, subs s !! id = Some sb /\ sb_kind sb = KNode (po_node po) g h d /\ h <> 0 /\
                                po_addr po = sb_addr sb }.

Lemma idx_lstruct s : idx_sub s -> lstruct s.
Proof. intros Hx. split; [apply (st_kind _ Hx)|apply (st_alloc_sub _ Hx)|apply (st_pay_sub _ Hx)]. Qed.

Lemma lstruct_frame s s' :
  subs s' = subs s -> allocs s' = allocs s -> payouts s' = payouts s -> lstruct s -> lstruct s'.
Proof. intros E1 E2 E3 [A B C]. split; rewrite ?E1, ?E2, ?E3; assumption. Qed.
