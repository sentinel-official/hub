(* C06, across one whole operation of any kind: the used bytes of a stored allocation never decrease, and they can
   grow only in the end-blocker (where Quota.settlement_usage names, iteration by iteration, the holder's own pending
   session whose settlement it was, and bounds the growth by the bytes that session reported).  No transaction -- not
   the usage report itself, not a re-share of quota --, no begin-blocker and no governance change moves a counter. *)
From Hub Require Import Base.Prelude Base.Arith Model.Types Model.Keeper Model.Handlers Model.Hooks Model.Step.
From Hub Require Import Proofs.Tactics Proofs.Effects Proofs.Frames Proofs.KeysInv Proofs.Lifecycle Proofs.Quota Proofs.InvDefs Proofs.IndexSub Proofs.IndexSub2 Proofs.IndexAll Proofs.Link.

Section usage.
  Variable k : Z * addr.

  (* backwards: an allocation found afterwards was there before, with no more used bytes *)
  Definition back (a b : state) : Prop :=
    forall alb, allocs b !! k = Some alb -> exists ala, allocs a !! k = Some ala /\ al_used ala <= al_used alb.

  Lemma back_refl a : back a a.
  Proof. intros al H. exists al. split; [exact H|lia]. Qed.
  Lemma back_trans a b c : back a b -> back b c -> back a c.
  Proof. intros H1 H2 alc Hc. destruct (H2 _ Hc) as (alb & Hb & L1). destruct (H1 _ Hb) as (ala & Ha & L2). exists ala. split; [exact Ha|lia]. Qed.
  Lemma back_same a b : allocs b = allocs a -> back a b.
  Proof. intros E al H. rewrite E in H. exists al. split; [exact H|lia]. Qed.

  Lemma back_session_expire_one s e s' : kinv s -> quota_inv s -> session_expire_one s e = Ok s' -> back s s'.
  Proof.
    intros Hi Hq H alb Hb. destruct (session_expire_one_effect _ _ _ H) as (x & Hx & H0).
    assert (Hdom : is_Some (allocs s !! k)).
    { destruct H0 as [(_ & E0)|(_ & _ & s1 & Hh & E0)]; rewrite E0 in Hb; simpl in Hb; [eauto|].
      apply session_inactive_hook_allocs in Hh; [|eapply kinv_sub_frame; [..|apply (ki_sub _ Hi)]; reflexivity].
      destruct Hh as [E|(x0 & al0 & u' & _ & Hal0 & E & _)]; rewrite E in Hb; simpl in *; [eauto|].
      apply lookup_insert_Some in Hb as [[<- _]|[_ Hb]]; eauto. }
    destruct Hdom as [ala Ha]. exists ala. split; [exact Ha|].
    destruct (settlement_usage s e s' x Hi Hq H Hx k ala alb Ha Hb) as (_ & L & _). exact L.
  Qed.

  Lemma back_sub_expire_one s e s' : kinv s -> idx_sub s -> sub_expire_one s e = Ok s' -> back s s'.
  Proof.
    intros Hi Hix H. destruct (sub_expire_one_effect _ _ _ H) as (sb & Hsb & [(_ & s1 & Hp & Hd)|(Hact & _)]).
    - apply back_same. apply (sub_demote_fields _ _ _ _ Panic _ Hp ltac:(intros ?; discriminate) Hd).
    - destruct (sub_remove_spec s e s' sb (ki_sub _ Hi) Hix Hsb Hact H) as (_ & _ & R3 & _).
      intros alb Hb. rewrite R3 in Hb. case_bool_decide; [discriminate|]. exists alb. split; [exact Hb|lia].
  Qed.

  (* transactions: an allocation that exists before and after keeps its used bytes *)
  Lemma used_handle s m s' al al' :
    kinv s -> handle s m = Ok s' -> allocs s !! k = Some al -> allocs s' !! k = Some al' -> al_used al' = al_used al.
  Proof.
    intros Hi H Ha Hb. destruct (k_al _ (ki_sub _ Hi) _ _ Ha) as (_ & _ & Rk).
    destruct (touched GSub (msg_groups m)) eqn:Ht.
    2:{ destruct (keeps_sub _ _ _ (handle_frame _ _ _ H) Ht) as (_ & _ & _ & _ & _ & _ & Ea & _). congruence. }
    destruct m; try discriminate Ht; simpl in H.
    - (* node subscription: a new allocation under the next identifier, or none *)
      destruct (h_node_subscribe_effect _ _ _ _ _ _ _ H) as (y & nid & _ & _ & Hc & ->). simpl in Hb.
      destruct (create_sub_for_node_subs _ _ _ _ _ _ _ _ Hc) as (inact & dep & Eid & _ & _ & E & _). rewrite E in Hb.
      destruct (gigabytes =? 0); [congruence|]. rewrite lookup_insert_ne in Hb; [congruence|]. intros <-. simpl in Rk. lia.
    - (* plan subscription *)
      destruct (h_plan_subscribe_effect _ _ _ _ _ H) as (y & nid & Hc & ->). simpl in Hb.
      destruct (create_sub_for_plan_subs _ _ _ _ _ _ Hc) as (p & _ & Eid & _ & _ & E & _). rewrite E in Hb.
      rewrite lookup_insert_ne in Hb; [congruence|]. intros <-. simpl in Rk. lia.
    - (* cancel: allocations untouched *)
      rewrite (h_sub_cancel_allocs _ _ _ _ H) in Hb. congruence.
    - (* sharing: only grants move *)
      destruct (h_sub_allocate_spec _ _ _ _ _ _ H) as (sb & fal & _ & Hf & Hne & _ & _ & E). cbv zeta in E. rewrite E in Hb.
      apply lookup_insert_Some in Hb as [[<- <-]|[N1 Hb]].
      + rewrite Ha. reflexivity.
      + apply lookup_insert_Some in Hb as [[<- <-]|[N2 Hb]]; [rewrite Hf in Ha; injection Ha as <-; reflexivity|congruence].
  Qed.

  Theorem usage_grows_only_in_end_block s o s' al al' :
    life_inv s -> quota_inv s -> step s o = OOk s' ->
    allocs s !! k = Some al -> allocs s' !! k = Some al' ->
    al_used al <= al_used al' /\ (o <> OEnd -> al_used al' = al_used al).
  Proof.
    intros Hl Hq Hstep Ha Hb. pose proof (ai_k _ (lf_idx _ Hl)) as Hi. apply step_inv in Hstep. destruct o.
    - rename Hstep into H. rename s' into y.
      assert (E : allocs y = allocs s).
      { apply begin_block_effect in H as (s1 & H1 & H2). apply mint_begin_block_keeps in H1.
        transitivity (allocs s1); [|exact (proj1 (proj2 (proj2 (proj2 (proj2 (proj2 (proj2 (keeps_sub _ _ _ H1 eq_refl))))))))]. unfold sub_begin_block in H2.
        eapply (rfold_inv (fun x => allocs x = allocs s1)); [|reflexivity|exact H2].
        intros a e b Ea Hs. destruct (payout_step_allocs _ _ _ Hs) as (E & _). congruence. }
      rewrite E, Ha in Hb. injection Hb as <-. split; [lia|reflexivity].
    - destruct Hstep as [_ H]. rename s' into y.
      rewrite (used_handle (clear_events s) m y al al' (kinv_clear _ Hi) H Ha Hb). split; [lia|reflexivity].
    - destruct Hstep as [_ ->].
      destruct (keeps_sub _ _ _ (fold_pchange_keeps cs (clear_events s)) eq_refl) as (_ & _ & _ & _ & _ & _ & G3 & _). rewrite G3 in Hb. simpl in Hb.
      rewrite Ha in Hb. injection Hb as <-. split; [lia|reflexivity].
    - split; [|congruence]. destruct Hstep as (y & H & ->).
      change (allocs (y <| modified := no_flags |>)) with (allocs y) in Hb.
      apply end_block_effect in H as (s1 & s2 & H1 & H2 & H3).
      pose proof (node_end_block_keeps _ _ H1) as K1.
      assert (Hi1 : kinv s1) by (eapply kinv_node_end_block; [apply kinv_clear; exact Hi|exact H1]).
      assert (Hq1 : quota_inv s1) by (eapply quota_inv_keeps; [exact K1|reflexivity..|eapply quota_inv_frame; [..|exact Hq]; reflexivity]).
      assert (Hx1 : idx_sub s1) by (eapply idx_sub_keeps; [exact K1|reflexivity|eapply idx_sub_frame; [..|exact (ai_sub _ (lf_idx _ Hl))]; reflexivity]).
      assert (B2 : kinv s2 /\ quota_inv s2 /\ idx_sub s2 /\ back s1 s2).
      { unfold session_end_block in H2.
        eapply (rfold_inv (fun x => kinv x /\ quota_inv x /\ idx_sub x /\ back s1 x)); [| |exact H2].
        - intros a e b (Ka & Qa & Xa & Ba) Hs. split; [eapply kinv_session_expire_one; eauto|].
          split; [eapply quota_session_expire_one; eauto|]. split; [eapply idx_sub_session_expire_one; eauto|].
          eapply back_trans; [exact Ba|]. eapply back_session_expire_one; eauto.
        - split; [exact Hi1|]. split; [exact Hq1|]. split; [exact Hx1|]. apply back_refl. }
      destruct B2 as (Hi2 & _ & Hx2 & B2).
      assert (B3 : back s2 y).
      { unfold sub_end_block in H3.
        eapply (rfold_inv (fun x => kinv x /\ idx_sub x /\ back s2 x)); [| |exact H3].
        - intros a e b (Ka & Xa & Ba) Hs. split; [eapply kinv_sub_expire_one; eauto|]. split; [eapply idx_sub_expire_one; eauto|].
          eapply back_trans; [exact Ba|]. eapply back_sub_expire_one; eauto.
        - split; [exact Hi2|]. split; [exact Hx2|]. apply back_refl. }
      destruct (back_trans _ _ _ B2 B3 _ Hb) as (al1 & Ha1 & L).
      destruct (keeps_sub _ _ _ K1 eq_refl) as (_ & _ & _ & _ & _ & _ & E1 & _). change (allocs (clear_events s)) with (allocs s) in E1.
      rewrite E1, Ha in Ha1. injection Ha1 as <-. exact L.
  Qed.
End usage.
