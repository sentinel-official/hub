(* C19 — proofs about the hand-written codec code of the hub:
     * Status <-> JSON through jsonpb (tables of Gen/StatusTables.v, model Model/StatusCodec.v),
     * EthereumHash <-> bytes / hex JSON (Model/HashCodec.v).
   The finite statements (all declared enum values) are proved by computation over the GENERATED tables and
   lifted with forallb_forall: they are re-checked against the current source on every run.  The hex and
   BytesToHash statements are for all byte lists (induction). *)
From Coq Require Import ZArith NArith String Ascii List Bool Lia Permutation DecimalString DecimalFacts DecimalPos DecimalZ.
From Hub Require Import Gen.StatusTables Model.StatusCodec Model.HashCodec.
Import ListNotations.

(* ------------------------------------------------------------------------------------------- *)
(* Association lists                                                                           *)
(* ------------------------------------------------------------------------------------------- *)
Lemma assoc_s_app k l1 l2 :
  assoc_s k (l1 ++ l2) = match assoc_s k l1 with Some v => Some v | None => assoc_s k l2 end.
Proof.
  induction l1 as [|[k' v] l1 IH]; cbn; [reflexivity|].
  destruct (String.eqb k k'); [reflexivity|exact IH].
Qed.

Lemma assoc_s_perm l l' :
  Permutation l l' -> NoDup (map fst l) -> forall k, assoc_s k l = assoc_s k l'.
Proof.
  intros HP. induction HP as [| [a x] l l' HP IH | [a x] [b y] l | l l' l'' HP1 IH1 HP2 IH2]; intros HN k.
  - reflexivity.
  - cbn in *. inversion HN as [|? ? _ HN']; subst. destruct (String.eqb k a); [reflexivity|]. apply IH, HN'.
  - cbn in *. inversion HN as [|? ? Hnin _]; subst.
    destruct (String.eqb k b) eqn:Eb, (String.eqb k a) eqn:Ea; try reflexivity.
    apply String.eqb_eq in Eb, Ea. subst. exfalso. apply Hnin. left. reflexivity.
  - rewrite IH1 by exact HN. apply IH2.
    eapply Permutation_NoDup; [|exact HN]. apply Permutation_map, HP1.
Qed.

Lemma existsb_eqb_false_notin x (l : list string) : existsb (String.eqb x) l = false -> ~ In x l.
Proof.
  induction l as [|y l IH]; cbn; [tauto|].
  intros H [E|E].
  - subst. rewrite String.eqb_refl in H. discriminate.
  - apply orb_false_iff in H as [_ H]. exact (IH H E).
Qed.

Lemma nodup_strings_NoDup l : nodup_strings l = true -> NoDup l.
Proof.
  induction l as [|x l IH]; cbn; intros H; constructor.
  - apply andb_true_iff in H as [H _]. apply negb_true_iff in H. apply existsb_eqb_false_notin, H.
  - apply andb_true_iff in H as [_ H]. apply IH, H.
Qed.

(* ------------------------------------------------------------------------------------------- *)
(* Status: JSON round trip for every declared value                                            *)
(* ------------------------------------------------------------------------------------------- *)
Definition opt_is (o : option Z) (v : Z) : bool := match o with Some v' => Z.eqb v' v | None => false end.

Lemma opt_is_true o v : opt_is o v = true -> o = Some v.
Proof. destruct o as [v'|]; cbn; [|discriminate]. intros H. apply Z.eqb_eq in H. subst. reflexivity. Qed.

(* computed over the generated tables *)
Lemma status_json_roundtrip_b :
  forallb (fun v => opt_is (parse_status_json (print_status_json v)) v) declared_values = true.
Proof. vm_compute. reflexivity. Qed.

Theorem status_json_roundtrip :
  forall v, In v declared_values -> parse_status_json (print_status_json v) = Some v.
Proof.
  intros v Hin. apply opt_is_true.
  exact (proj1 (forallb_forall _ _) status_json_roundtrip_b v Hin).
Qed.

(* no two declared values print the same name: the effect of init()'s loop over the Go map does not
   depend on the (unspecified) iteration order *)
Lemma status_printed_names_distinct_b : nodup_strings (map status_string declared_values) = true.
Proof. vm_compute. reflexivity. Qed.

Lemma status_printed_names_distinct : NoDup (map status_string declared_values).
Proof. apply nodup_strings_NoDup, status_printed_names_distinct_b. Qed.

Theorem status_value_runtime_order_independent :
  forall order, Permutation order declared_values ->
  forall name, assoc_s name (status_value_runtime_of order) = assoc_s name status_value_runtime.
Proof.
  intros order HP name. unfold status_value_runtime, status_value_runtime_of.
  destruct status_init_registers_printed_names; [|reflexivity].
  rewrite !assoc_s_app.
  assert (HP' : Permutation (status_value_aliases_of order) (status_value_aliases_of declared_values)).
  { unfold status_value_aliases_of. rewrite <- !Permutation_rev. apply Permutation_map, HP. }
  rewrite (assoc_s_perm _ _ HP'); [reflexivity|].
  eapply Permutation_NoDup.
  - apply Permutation_map. symmetry. exact HP'.
  - unfold status_value_aliases_of. rewrite map_rev, map_map. cbn [fst].
    apply NoDup_rev, status_printed_names_distinct.
Qed.

Theorem status_json_roundtrip_any_init_order :
  forall order, Permutation order declared_values ->
  forall v, In v declared_values ->
  parse_enum_json (status_value_runtime_of order) (print_status_json v) = Some v.
Proof.
  intros order HP v Hin. rewrite <- (status_json_roundtrip v Hin).
  unfold parse_status_json, parse_enum_json.
  destruct (print_status_json v) as [|c r]; [reflexivity|].
  destruct (Ascii.eqb c StatusCodec.dquote); [|reflexivity].
  apply status_value_runtime_order_independent, HP.
Qed.

(* the generated STATUS_* names are accepted as well and mean the declared numbers *)
Lemma status_generated_names_parse_b :
  forallb (fun p => opt_is (parse_status_json (StatusCodec.quote (snd p))) (fst p)) status_name_pb = true.
Proof. vm_compute. reflexivity. Qed.

Theorem status_generated_names_parse :
  forall v name, In (v, name) status_name_pb -> parse_status_json (StatusCodec.quote name) = Some v.
Proof.
  intros v name Hin. apply opt_is_true.
  exact (proj1 (forallb_forall _ _) status_generated_names_parse_b (v, name) Hin).
Qed.

(* the historical defect (before `fix: Status values printed in JSON can be parsed back`): with the generated
   table alone the printed form of a declared value is not read back *)
Definition status_json_roundtrip_generated_only : Prop :=
  forall v, In v declared_values -> parse_status_json_generated_only (print_status_json v) = Some v.

Corollary status_json_roundtrip_generated_only_false : ~ status_json_roundtrip_generated_only.
Proof.
  intros H. assert (Hin : In 1%Z declared_values) by (vm_compute; tauto).
  specialize (H 1%Z Hin). vm_compute in H. discriminate.
Qed.

(* boundary of the claim: a number outside the declared enum is printed by String()'s default arm and so is
   NOT preserved by JSON (the binary encoding keeps it); such a value is rejected by every ValidateBasic /
   genesis Validate of the hub and cannot be stored *)
Theorem status_json_undeclared_not_preserved :
  exists v, ~ In v declared_values /\ status_is_valid v = false /\
            parse_status_json (print_status_json v) = Some 0%Z /\ v <> 0%Z.
Proof.
  exists 7%Z. split; [|split; [|split]].
  - vm_compute. intuition discriminate.
  - vm_compute. reflexivity.
  - vm_compute. reflexivity.
  - discriminate.
Qed.

(* IsValid accepts declared values only; StatusFromString reads back String() *)
Lemma status_valid_declared_b : forallb (fun v => existsb (Z.eqb v) declared_values) status_is_valid_values = true.
Proof. vm_compute. reflexivity. Qed.

Theorem status_valid_is_declared : forall v, status_is_valid v = true -> In v declared_values.
Proof.
  intros v H. unfold status_is_valid in H. apply existsb_exists in H as [w [Hw E]].
  apply Z.eqb_eq in E. subst w.
  pose proof (proj1 (forallb_forall _ _) status_valid_declared_b v Hw) as H2. cbv beta in H2.
  apply existsb_exists in H2 as [w [Hw2 E]]. apply Z.eqb_eq in E. subst. exact Hw2.
Qed.

Lemma status_from_string_roundtrip_b :
  forallb (fun v => Z.eqb (status_from_string (status_string v)) v) declared_values = true.
Proof. vm_compute. reflexivity. Qed.

Theorem status_from_string_roundtrip :
  forall v, In v declared_values -> status_from_string (status_string v) = v.
Proof.
  intros v Hin. apply Z.eqb_eq.
  exact (proj1 (forallb_forall _ _) status_from_string_roundtrip_b v Hin).
Qed.

(* ------------------------------------------------------------------------------------------- *)
(* Status: a bare number is read back as that number (every int32, declared or not)            *)
(* ------------------------------------------------------------------------------------------- *)
Lemma to_uint_head_nonzero p d' : Pos.to_uint p <> Decimal.D0 d'.
Proof.
  intros E.
  pose proof (DecimalPos.Unsigned.to_of (Pos.to_uint p)) as H.
  rewrite DecimalPos.Unsigned.of_to in H. cbn [N.to_uint] in H.
  unfold Decimal.unorm in H.
  destruct (Decimal.nzhead (Pos.to_uint p)) eqn:En;
    try (rewrite E in H; discriminate H).
  - exact (DecimalPos.Unsigned.to_uint_nonzero p H).
  - exact (DecimalFacts.nzhead_nonzero _ _ En).
Qed.

Lemma all_digits_string_of_uint d : all_digits (NilEmpty.string_of_uint d) = true.
Proof. induction d; cbn; auto. Qed.

Lemma json_uint_literal_to_uint p : json_uint_literal (NilZero.string_of_uint (Pos.to_uint p)) = true.
Proof.
  pose proof (DecimalPos.Unsigned.to_uint_nonnil p) as Hn.
  pose proof (to_uint_head_nonzero p) as Hz.
  destruct (Pos.to_uint p) as [|u|u|u|u|u|u|u|u|u|u]; [congruence | exfalso; exact (Hz u eq_refl) | ..];
    cbn; apply all_digits_string_of_uint.
Qed.

Lemma json_int_literal_itoa z : json_int_literal (itoa z) = true.
Proof.
  destruct z as [|p|p]; [reflexivity | |].
  - unfold itoa. cbn [Z.to_int NilZero.string_of_int].
    pose proof (json_uint_literal_to_uint p) as H.
    pose proof (DecimalPos.Unsigned.to_uint_nonnil p) as Hn.
    pose proof (to_uint_head_nonzero p) as Hz.
    destruct (Pos.to_uint p) as [|u|u|u|u|u|u|u|u|u|u]; [congruence | exfalso; exact (Hz u eq_refl) | ..];
      exact H.
  - unfold itoa. cbn [Z.to_int NilZero.string_of_int]. cbn [json_int_literal].
    change (Ascii.eqb "-" "-") with true. cbv iota. apply json_uint_literal_to_uint.
Qed.

Lemma parse_int32_json_itoa z : in_int32 z = true -> parse_int32_json (itoa z) = Some z.
Proof.
  intros Hr. unfold parse_int32_json. rewrite json_int_literal_itoa.
  unfold itoa. rewrite NilZero.isi; [rewrite DecimalZ.of_to, Hr; reflexivity|..].
  all: destruct z as [|p|p]; cbn; try discriminate;
    intros E; injection E as E; exact (DecimalPos.Unsigned.to_uint_nonnil p E).
Qed.

Definition starts_numeric (s : string) : bool :=
  match s with
  | String c _ => (is_digit c || Ascii.eqb c "-"%char)%bool
  | EmptyString => false
  end.

Lemma parse_enum_json_numeric table s :
  starts_numeric s = true -> parse_enum_json table s = parse_int32_json s.
Proof.
  destruct s as [|c r]; [discriminate|]. cbn [starts_numeric parse_enum_json String.eqb]. intros H.
  (* a digit or a minus sign is neither the quote nor the "n" of "null" *)
  assert (Hne : forall d, (Ascii.nat_of_ascii d < 45 \/ 57 < Ascii.nat_of_ascii d)%nat -> Ascii.eqb c d = false).
  { intros d Hd. destruct (Ascii.eqb_spec c d) as [->|]; [|reflexivity]. exfalso.
    apply orb_true_iff in H as [H|H].
    - unfold is_digit in H. apply andb_true_iff in H as [H1 H2]. apply Nat.leb_le in H1, H2. lia.
    - apply Ascii.eqb_eq in H. subst d. cbn in Hd. lia. }
  rewrite (Hne StatusCodec.dquote), (Hne "n"%char) by (cbn; lia). reflexivity.
Qed.

Lemma starts_numeric_itoa z : starts_numeric (itoa z) = true.
Proof.
  pose proof (json_int_literal_itoa z) as H.
  destruct (itoa z) as [|c r]; [discriminate|].
  unfold json_int_literal in H. cbn [starts_numeric].
  destruct (Ascii.eqb c "-") eqn:E; [apply orb_true_r|].
  unfold json_uint_literal in H. destruct (Ascii.eqb c "0") eqn:E0.
  - apply Ascii.eqb_eq in E0. subst c. reflexivity.
  - apply andb_true_iff in H as [H _].
    unfold is_digit19 in H. unfold is_digit. apply andb_true_iff in H as [H1 H2].
    rewrite H2. apply Nat.leb_le in H1. rewrite orb_false_r, andb_true_r. apply Nat.leb_le. lia.
Qed.

Theorem status_json_number_roundtrip :
  forall z, in_int32 z = true -> parse_status_json (itoa z) = Some z.
Proof.
  intros z Hr. unfold parse_status_json.
  rewrite parse_enum_json_numeric by apply starts_numeric_itoa.
  apply parse_int32_json_itoa, Hr.
Qed.

(* ------------------------------------------------------------------------------------------- *)
(* EthereumHash: hex, SetBytes / BytesToHash, binary and JSON round trips                      *)
(* ------------------------------------------------------------------------------------------- *)
Local Open Scope N_scope.

Definition nibbles : list N := map N.of_nat (seq 0 16).

Lemma nibble_in n : n < 16 -> In n nibbles.
Proof.
  intros H. unfold nibbles. rewrite <- (N2Nat.id n). apply in_map, in_seq. lia.
Qed.

Definition optN_is (o : option N) (v : N) : bool := match o with Some v' => N.eqb v' v | None => false end.

Lemma nibble_roundtrip_b :
  forallb (fun n => optN_is (from_hex_char (hexdigit n)) n && optN_is (from_hex_char (upper_hex_char (hexdigit n))) n
                    && plain_char (hexdigit n))%bool nibbles = true.
Proof. vm_compute. reflexivity. Qed.

Lemma nibble_facts n : n < 16 ->
  from_hex_char (hexdigit n) = Some n /\ from_hex_char (upper_hex_char (hexdigit n)) = Some n /\
  plain_char (hexdigit n) = true.
Proof.
  intros H. pose proof (proj1 (forallb_forall _ _) nibble_roundtrip_b n (nibble_in n H)) as Hb.
  cbv beta in Hb. apply andb_true_iff in Hb as [Hb H3]. apply andb_true_iff in Hb as [H1 H2].
  assert (Hopt : forall o v, optN_is o v = true -> o = Some v).
  { intros [v'|] v; cbn; [|discriminate]. intros E. apply N.eqb_eq in E. subst. reflexivity. }
  auto.
Qed.

Lemma byte_split b : b < 256 -> b / 16 < 16 /\ b mod 16 < 16 /\ b / 16 * 16 + b mod 16 = b.
Proof.
  intros H. split; [|split].
  - apply N.div_lt_upper_bound; lia.
  - apply N.mod_lt. lia.
  - pose proof (N.div_mod b 16). lia.
Qed.

(* hex.DecodeString (hex.EncodeToString l) = l, for every byte list *)
Theorem hex_roundtrip : forall l, bytes_ok l -> hex_decode (hex_encode l) = Some l.
Proof.
  intros l Hok. induction Hok as [|b l Hb _ IH]; [reflexivity|].
  destruct (byte_split b Hb) as [H1 [H2 H3]].
  cbn [hex_encode hex_decode].
  rewrite (proj1 (nibble_facts _ H1)), (proj1 (nibble_facts _ H2)), IH, H3. reflexivity.
Qed.

(* ... and the upper-case spelling of the same text decodes to the same bytes *)
Theorem hex_roundtrip_upper : forall l, bytes_ok l -> hex_decode (upper_hex (hex_encode l)) = Some l.
Proof.
  intros l Hok. induction Hok as [|b l Hb _ IH]; [reflexivity|].
  destruct (byte_split b Hb) as [H1 [H2 H3]].
  cbn [hex_encode upper_hex hex_decode].
  rewrite (proj1 (proj2 (nibble_facts _ H1))), (proj1 (proj2 (nibble_facts _ H2))), IH, H3. reflexivity.
Qed.

Theorem hex_encode_length : forall l, String.length (hex_encode l) = (2 * List.length l)%nat.
Proof. induction l as [|b l IH]; cbn [hex_encode String.length List.length]; lia. Qed.

(* an odd number of characters never decodes *)
Theorem hex_decode_length : forall s l, hex_decode s = Some l -> String.length s = (2 * List.length l)%nat.
Proof.
  fix IH 1. intros s l. destruct s as [|a [|b r]]; cbn [hex_decode].
  - intros E. injection E as <-. reflexivity.
  - discriminate.
  - destruct (from_hex_char a), (from_hex_char b); try discriminate.
    destruct (hex_decode r) as [l'|] eqn:E; try discriminate.
    intros E2. injection E2 as <-. cbn [String.length List.length]. rewrite (IH r l' E). lia.
Qed.

Lemma firstn_repeat {A} (x : A) k n : firstn k (repeat x n) = repeat x (Nat.min k n).
Proof.
  revert n. induction k as [|k IH]; intros [|n]; cbn; try reflexivity. f_equal. apply IH.
Qed.

Lemma zero_hash_length : List.length zero_hash = HASH_LEN.
Proof. apply repeat_length. Qed.

(* the result always has 32 bytes *)
Theorem set_bytes_length : forall e b, List.length e = HASH_LEN -> List.length (set_bytes e b) = HASH_LEN.
Proof.
  intros e b He. unfold set_bytes.
  destruct (Nat.ltb HASH_LEN (List.length b)) eqn:E.
  - apply Nat.ltb_lt in E. rewrite app_length, firstn_length, skipn_length. lia.
  - apply Nat.ltb_ge in E. rewrite app_length, firstn_length. lia.
Qed.

Theorem bytes_to_hash_length : forall b, List.length (bytes_to_hash b) = HASH_LEN.
Proof. intros b. apply set_bytes_length, zero_hash_length. Qed.

(* shorter input is left-padded with zero bytes, longer input keeps its last 32 bytes *)
Theorem bytes_to_hash_short : forall b, (List.length b <= HASH_LEN)%nat ->
  bytes_to_hash b = repeat 0 (HASH_LEN - List.length b) ++ b.
Proof.
  intros b H. unfold bytes_to_hash, set_bytes.
  destruct (Nat.ltb HASH_LEN (List.length b)) eqn:E; [apply Nat.ltb_lt in E; lia|].
  unfold zero_hash. rewrite firstn_repeat. f_equal. f_equal. lia.
Qed.

Theorem bytes_to_hash_long : forall b, (HASH_LEN < List.length b)%nat ->
  bytes_to_hash b = skipn (List.length b - HASH_LEN) b.
Proof.
  intros b H. unfold bytes_to_hash, set_bytes.
  apply Nat.ltb_lt in H. rewrite H. apply Nat.ltb_lt in H.
  rewrite skipn_length. replace (HASH_LEN - _)%nat with 0%nat by lia. reflexivity.
Qed.

Lemma bytes_to_hash_leading_zero b : (List.length b < HASH_LEN)%nat -> bytes_to_hash (0%N :: b) = bytes_to_hash b.
Proof.
  intros H. rewrite (bytes_to_hash_short (0%N :: b)), (bytes_to_hash_short b) by (cbn [List.length]; lia).
  cbn [List.length]. replace (HASH_LEN - List.length b)%nat with (S (HASH_LEN - S (List.length b))) by lia.
  cbn [repeat]. rewrite repeat_cons, <- app_assoc. reflexivity.
Qed.

Theorem bytes_to_hash_exact : forall b, List.length b = HASH_LEN -> bytes_to_hash b = b.
Proof.
  intros b H. rewrite bytes_to_hash_short by lia. rewrite H, Nat.sub_diag. reflexivity.
Qed.

(* binary: Unmarshal (Marshal e) = e for every 32-byte value *)
Theorem hash_binary_roundtrip : forall e, List.length e = HASH_LEN -> hash_unmarshal (hash_marshal e) = e.
Proof. intros e H. apply bytes_to_hash_exact, H. Qed.

(* JSON string layer on text without escapes *)
Fixpoint all_plain (s : string) : bool :=
  match s with
  | EmptyString => true
  | String c r => (plain_char c && all_plain r)%bool
  end.

Lemma plain_not_quote c : plain_char c = true -> Ascii.eqb c HashCodec.dquote = false.
Proof.
  intros H. destruct (Ascii.eqb c HashCodec.dquote) eqn:E; [|reflexivity].
  apply Ascii.eqb_eq in E. subst c. vm_compute in H. discriminate.
Qed.

Lemma unquote_body_plain s : all_plain s = true -> unquote_body (s ++ String HashCodec.dquote EmptyString) = JOk s.
Proof.
  induction s as [|c r IH]; cbn [all_plain append unquote_body]; intros H.
  - rewrite Ascii.eqb_refl. reflexivity.
  - apply andb_true_iff in H as [Hc Hr]. rewrite (plain_not_quote c Hc), Hc, (IH Hr). reflexivity.
Qed.

Theorem json_unquote_quote : forall s, all_plain s = true -> json_unquote (HashCodec.quote s) = JOk s.
Proof.
  intros s H. unfold json_unquote, HashCodec.quote. rewrite Ascii.eqb_refl. apply unquote_body_plain, H.
Qed.

Lemma hex_encode_plain l : bytes_ok l -> all_plain (hex_encode l) = true.
Proof.
  intros Hok. induction Hok as [|b l Hb _ IH]; [reflexivity|].
  destruct (byte_split b Hb) as [H1 [H2 _]].
  cbn [hex_encode all_plain].
  rewrite (proj2 (proj2 (nibble_facts _ H1))), (proj2 (proj2 (nibble_facts _ H2))), IH. reflexivity.
Qed.

(* JSON: UnmarshalJSON (MarshalJSON e) = e for every 32-byte value *)
Theorem hash_json_roundtrip : forall e, List.length e = HASH_LEN -> bytes_ok e ->
  hash_unmarshal_json (hash_marshal_json e) = JOk e.
Proof.
  intros e Hl Hok. unfold hash_unmarshal_json, hash_marshal_json.
  rewrite json_unquote_quote by (apply hex_encode_plain, Hok).
  rewrite hex_roundtrip by exact Hok. rewrite bytes_to_hash_exact by exact Hl. reflexivity.
Qed.

(* what is NOT preserved: values that are not 32 bytes long are normalised to 32 bytes on reading *)
Theorem hash_unmarshal_not_injective :
  exists d1 d2, d1 <> d2 /\ hash_unmarshal d1 = hash_unmarshal d2.
Proof. exists [], [0]. split; [discriminate|vm_compute; reflexivity]. Qed.
