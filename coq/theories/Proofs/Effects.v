(* What the large functions of the model do, inverted once: each lemma turns [f s args = Ok s']
   into the guards that passed, the escrow/bank calls that were made (left as calls: Money.v says
   what those do) and [s'] as one named update of the state after the last such call.  The update
   is a definition, so that [s'] can be substituted everywhere without copying a term of eleven
   nested record updates into every clause of a goal; its fields compute ([cbn], [simpl]). *)
From Hub Require Import Base.Prelude Base.Arith Model.Types Model.Keeper Model.Handlers Model.Hooks Model.Step.
From Hub Require Import Proofs.Tactics.

(* two states built from the same fields are equal: used to reassemble a post-state whose event
   list was appended to in several steps *)
Ltac state_eq :=
  cbv beta iota delta [set emit cfg bank supply deposits prov_act prov_inact node_act node_inact node_q node_plan plan_count plan_act plan_inact plan_prov sub_count subs sub_q sub_acc sub_node sub_plan allocs payouts pay_q pay_acc pay_node pay_acc_node sess_count sessions sess_q sess_acc sess_node sess_sub sess_alloc pars modified swaps inflations mint_max mint_min mint_rate mint_inflation now events];
  rewrite <- ?app_assoc, ?app_nil_r; reflexivity.

Definition node_sub (s : state) (acc nd : addr) (g h : Z) (inact : time) (dep : coin) : subscription :=
  {| sb_id := sub_count s + 1; sb_addr := acc; sb_inactive_at := inact; sb_status := SActive;
     sb_status_at := now s; sb_kind := KNode nd g h dep |}.
Definition node_sub_alloc (s : state) (acc : addr) (g : Z) : allocation :=
  {| al_id := sub_count s + 1; al_addr := acc; al_granted := GB * g; al_used := 0 |}.
Definition node_sub_payout (s : state) (acc nd : addr) (h : Z) (dep : coin) : payout :=
  {| po_id := sub_count s + 1; po_addr := acc; po_node := nd; po_hours := h; po_price := (dep.1, Z.quot dep.2 h);
     po_next_at := now s |}.

(* [s1]: the state after the escrow transfer; [s]: the state before, whose counter and clock are read *)
Definition node_purchase_state (s1 s : state) (acc nd : addr) (g h : Z) (inact : time) (dep : coin) : state :=
  let id := sub_count s + 1 in
  s1 <| sub_count := id |> <| subs ::= insert id (node_sub s acc nd g h inact dep) |>
     <| sub_acc ::= fun x => x ∪ {[ (acc, id) ]} |> <| sub_node ::= fun x => x ∪ {[ (nd, id) ]} |>
     <| sub_q ::= fun x => x ∪ {[ (inact, id) ]} |>
     <| allocs ::= fun m => if g =? 0 then m else <[(id, acc) := node_sub_alloc s acc g]> m |>
     <| payouts ::= fun m => if h =? 0 then m else <[id := node_sub_payout s acc nd h dep]> m |>
     <| pay_acc ::= fun x => if h =? 0 then x else x ∪ {[ (acc, id) ]} |>
     <| pay_node ::= fun x => if h =? 0 then x else x ∪ {[ (nd, id) ]} |>
     <| pay_acc_node ::= fun x => if h =? 0 then x else x ∪ {[ (acc, nd, id) ]} |>
     <| pay_q ::= fun x => if h =? 0 then x else x ∪ {[ (now s, id) ]} |>
     <| events ::= fun l => l ++
          (if g =? 0 then [] else [ev "subscription.EventAllocate" [VT (canon RAcc acc); VZ (GB * g); VZ 0; VZ id]]) ++
          (if h =? 0 then [] else [ev "subscription.EventCreatePayout" [VT (canon RAcc acc); VT (canon RNode nd); VZ id]]) |>.

(* the quote: what is escrowed and until when the subscription runs *)
Definition node_quote (s : state) (n : node) (g h : Z) (dn : denom) (inact : time) (dep : coin) : Prop :=
  (g <> 0 -> exists price a, nd_gb_prices n !! dn = Some price /\ fits (GB * g) = true /\
                             amount_for_bytes price (GB * g) = Ok a /\ 0 <= a /\
                             (h = 0 -> inact = now s + 90 * DAY /\ dep = (dn, a))) /\
  (h <> 0 -> exists price, nd_hr_prices n !! dn = Some price /\ fits (price * h) = true /\ 0 <= price * h /\
                           inact = now s + h * HOUR /\ dep = (dn, price * h) /\ 0 <= Z.quot (price * h) h) /\
  (g = 0 -> h = 0 -> inact = tzero /\ dep = (0%N, 0)).

Lemma create_sub_for_node_effect s acc nd g h dn s' id :
  create_sub_for_node s acc nd g h dn = Ok (s', id) ->
  exists n inact dep s1,
    get_node s nd = Some n /\ nd_status n = SActive /\ node_quote s n g h dn inact dep /\
    z_dep_add s acc dep = Ok s1 /\
    id = sub_count s + 1 /\ s' = node_purchase_state s1 s acc nd g h inact dep.
Proof.
  unfold create_sub_for_node. intros H.
  destruct (get_node s nd) as [n|] eqn:Hn; [|discriminate].
  apply rbind_ok in H as (u & Hact & H). apply ensure_ok, bool_decide_eq_true in Hact.
  apply rbind_ok in H as ([inact1 dep1] & H1 & H). apply rbind_ok in H as ([inact dep] & H2 & H).
  apply rbind_ok in H as (s1 & Hs1 & H). apply rbind_ok in H as (s3 & H3 & H). apply rbind_ok in H as (s4 & H4 & H).
  injection H as -> <-.
  exists n, inact, dep, s1. do 2 (split; [auto|]).
  split; [|split; [exact Hs1|split; [reflexivity|]]].
  -
    clear - H1 H2 H4. unfold node_quote.
    destruct (g =? 0) eqn:Eg; cbn [negb] in H1.
    + apply Z.eqb_eq in Eg. injection H1 as <- <-.
      destruct (h =? 0) eqn:Eh; cbn [negb] in H2, H4.
      * apply Z.eqb_eq in Eh. injection H2 as <- <-. repeat split; intros; first [lia|reflexivity].
      * apply Z.eqb_neq in Eh. destruct (nd_hr_prices n !! dn) as [price|]; [|discriminate].
        apply rbind_ok in H2 as (a & Ha & H2). pose proof (chk_fits _ _ Ha) as Hf. apply chk_ok in Ha as ->.
        apply rbind_ok in H2 as (c & Hc & H2). apply new_coin_ok in Hc as [-> Hc]. injection H2 as <- <-.
        apply rbind_ok in H4 as (pr & Hpr & H4). apply int_quo_ok in Hpr as [_ ->].
        apply rbind_ok in H4 as (pc & Hpc & _). apply new_coin_ok in Hpc as [_ Hpc].
        split; [lia|]. split; [|lia]. intros _. exists price. auto 10.
    + apply Z.eqb_neq in Eg. destruct (nd_gb_prices n !! dn) as [price|]; [|discriminate].
      apply rbind_ok in H1 as (b & Hb & H1). pose proof (chk_fits _ _ Hb) as Hf. apply chk_ok in Hb as ->.
      apply rbind_ok in H1 as (a & Ha & H1). apply rbind_ok in H1 as (c & Hc & H1). apply new_coin_ok in Hc as [-> Hc].
      injection H1 as <- <-.
      destruct (h =? 0) eqn:Eh; cbn [negb] in H2, H4.
      * apply Z.eqb_eq in Eh. injection H2 as <- <-. split; [|split; intros; lia]. intros _. exists price, a. auto 10.
      * apply Z.eqb_neq in Eh. destruct (nd_hr_prices n !! dn) as [price'|]; [|discriminate].
        apply rbind_ok in H2 as (a' & Ha' & H2). pose proof (chk_fits _ _ Ha') as Hf'. apply chk_ok in Ha' as ->.
        apply rbind_ok in H2 as (c' & Hc' & H2). apply new_coin_ok in Hc' as [-> Hc']. injection H2 as <- <-.
        apply rbind_ok in H4 as (pr & Hpr & H4). apply int_quo_ok in Hpr as [_ ->].
        apply rbind_ok in H4 as (pc & Hpc & _). apply new_coin_ok in Hpc as [_ Hpc].
        split; [|split; [|lia]].
        -- intros _. exists price, a. repeat split; auto; lia.
        -- intros _. exists price'. auto 10.
  -
    clear - H3 H4. unfold node_purchase_state.
    destruct (g =? 0); cbn [negb] in H3.
    + injection H3 as <-. destruct (h =? 0); cbn [negb] in H4.
      * injection H4 as <-. state_eq.
      * apply rbind_ok in H4 as (pr & Hpr & H4). apply int_quo_ok in Hpr as [_ ->].
        apply rbind_ok in H4 as (pc & Hpc & H4). apply new_coin_ok in Hpc as [-> _]. injection H4 as <-. state_eq.
    + apply rbind_ok in H3 as (gg & Hg & H3). apply int_mul_ok in Hg as ->. injection H3 as <-.
      destruct (h =? 0); cbn [negb] in H4.
      * injection H4 as <-. state_eq.
      * apply rbind_ok in H4 as (pr & Hpr & H4). apply int_quo_ok in Hpr as [_ ->].
        apply rbind_ok in H4 as (pc & Hpc & H4). apply new_coin_ok in Hpc as [-> _]. injection H4 as <-. state_eq.
Qed.

Definition plan_sub (s : state) (acc : addr) (pid : Z) (dn : denom) (p : plan) : subscription :=
  {| sb_id := sub_count s + 1; sb_addr := acc; sb_inactive_at := now s + pl_duration p; sb_status := SActive;
     sb_status_at := now s; sb_kind := KPlan pid dn |}.
Definition plan_sub_alloc (s : state) (acc : addr) (p : plan) : allocation :=
  {| al_id := sub_count s + 1; al_addr := acc; al_granted := GB * pl_gb p; al_used := 0 |}.

(* [s2]: the state after the two payments (fee collector, provider) *)
Definition plan_purchase_state (s2 s : state) (acc : addr) (pid : Z) (dn : denom) (p : plan) (payment fee : Z) : state :=
  let id := sub_count s + 1 in
  s2 <| sub_count := id |> <| subs ::= insert id (plan_sub s acc pid dn p) |>
     <| sub_acc ::= fun x => x ∪ {[ (acc, id) ]} |> <| sub_plan ::= fun x => x ∪ {[ (pid, id) ]} |>
     <| sub_q ::= fun x => x ∪ {[ (now s + pl_duration p, id) ]} |>
     <| allocs ::= insert (id, acc) (plan_sub_alloc s acc p) |>
     <| events ::= fun l => l ++
          [ev "subscription.EventPayForPlan" [VT (canon RAcc acc); VC [(dn, payment)]; VT (canon RProv (pl_prov p)); VC [(dn, fee)]; VZ pid];
           ev "subscription.EventAllocate" [VT (canon RAcc acc); VZ (GB * pl_gb p); VZ 0; VZ id]] |>.

Lemma create_sub_for_plan_effect s acc pid dn s' id :
  create_sub_for_plan s acc pid dn = Ok (s', id) ->
  exists p price fee s1 s2,
    get_plan s pid = Some p /\ pl_status p = SActive /\ pl_prices p !! dn = Some price /\
    proportion price (p_prov_share (pars s)) = Ok fee /\ 0 <= price - fee /\ fits (GB * pl_gb p) = true /\
    z_send s acc (c_feecoll (cfg s)) (dn, fee) = Ok s1 /\ z_send s1 acc (pl_prov p) (dn, price - fee) = Ok s2 /\
    sub_count s2 = sub_count s /\
    id = sub_count s + 1 /\ s' = plan_purchase_state s2 s acc pid dn p (price - fee) fee.
Proof.
  unfold create_sub_for_plan. intros H.
  destruct (get_plan s pid) as [p|] eqn:Hp; [|discriminate].
  apply rbind_ok in H as (u & Hact & H). apply ensure_ok, bool_decide_eq_true in Hact.
  destruct (pl_prices p !! dn) as [price|] eqn:Hpr; [|discriminate].
  apply rbind_ok in H as (fee & Hfee & H). apply rbind_ok in H as (s1 & Hs1 & H).
  apply rbind_ok in H as (pay & Hpay & H). apply coin_sub_ok in Hpay as [-> Hpay]. cbn [fst snd] in *.
  apply rbind_ok in H as (s2 & Hs2 & H). apply rbind_ok in H as (gg & Hg & H). pose proof (chk_fits _ _ Hg) as Hg'. apply chk_ok in Hg as ->. rename Hg' into Hg.
  assert (Ec : sub_count s2 = sub_count s).
  { clear - Hs1 Hs2. unfold z_send, bank_send in *.
    repeat match goal with H : (if ?b then _ else _) = Ok _ |- _ => destruct b; try discriminate end;
      repeat match goal with H : Ok _ = Ok _ |- _ => injection H as <- end; reflexivity. }
  injection H as <- <-. exists p, price, fee, s1, s2. repeat (split; [assumption || reflexivity|]).
  cbn [emit]. rewrite Ec. split; [reflexivity|]. unfold plan_purchase_state. state_eq.
Qed.

(** * one hourly payout (subscription.BeginBlock) *)

Definition payout_next (po : payout) : payout :=
  let h := po_hours po - 1 in
  po <| po_hours := h |> <| po_next_at := if h =? 0 then tzero else po_next_at po + HOUR |>.

(* [s3]: the state after both transfers out of the subscriber's escrow record *)
Definition payout_state (s3 : state) (po : payout) (fee : Z) : state :=
  s3 <| events ::= fun l => l ++ [ev "subscription.EventPayForPayout"
          [VT (canon RAcc (po_addr po)); VT (canon RNode (po_node po)); VC [((po_price po).1, (po_price po).2 - fee)];
           VC [((po_price po).1, fee)]; VZ (po_id po)]] |>
     <| payouts ::= insert (po_id po) (payout_next po) |>
     <| pay_q ::= fun q => if 0 <? po_hours po - 1 then q ∪ {[ (po_next_at (payout_next po), po_id po) ]} else q |>.

Lemma payout_step_effect s e s' :
  payout_step s e = Ok s' ->
  exists po fee s2 s3,
    payouts s !! e.2 = Some po /\
    proportion (po_price po).2 (p_node_share (pars s)) = Ok fee /\ 0 <= (po_price po).2 - fee /\
    z_dep_to_module (s <| pay_q ::= fun q => q ∖ {[ (po_next_at po, po_id po) ]} |>) (po_addr po) (c_feecoll (cfg s))
      ((po_price po).1, fee) = Ok s2 /\
    z_dep_to_account s2 (po_addr po) (po_node po) ((po_price po).1, (po_price po).2 - fee) = Ok s3 /\
    s' = payout_state s3 po fee.
Proof.
  unfold payout_step. intros H. destruct (payouts s !! e.2) as [po|]; [|discriminate].
  apply rbind_ok in H as (fee & Hfee & H). apply must_ok in Hfee.
  apply rbind_ok in H as (s2 & Hs2 & H). apply must_ok in Hs2.
  apply rbind_ok in H as (pay & Hpay & H). apply must_ok, coin_sub_ok in Hpay as [-> Hpay].
  apply rbind_ok in H as (s3 & Hs3 & H). apply must_ok in Hs3.
  exists po, fee, s2, s3. repeat (split; [assumption || reflexivity|]).
  unfold payout_state, payout_next. destruct (0 <? po_hours po - 1); injection H as <-; state_eq.
Qed.

Definition new_session (s : state) (id : Z) (acc nd : addr) : session :=
  {| ss_id := sess_count s + 1; ss_sub := id; ss_node := nd; ss_addr := acc; ss_up := 0; ss_down := 0; ss_duration := 0;
     ss_inactive_at := now s + p_sess_delay (pars s); ss_status := SActive; ss_status_at := now s |}.

Definition session_start_state (s : state) (id : Z) (acc nd : addr) : state :=
  let sid := sess_count s + 1 in
  emit (ev "session.EventStart" [VT (canon RAcc acc); VT (canon RNode nd); VZ sid; VZ id])
    (s <| sess_count := sid |> <| sessions ::= insert sid (new_session s id acc nd) |>
       <| sess_acc ::= fun i => i ∪ {[ (acc, sid) ]} |> <| sess_node ::= fun i => i ∪ {[ (nd, sid) ]} |>
       <| sess_sub ::= fun i => i ∪ {[ (id, sid) ]} |> <| sess_alloc ::= fun i => i ∪ {[ (id, acc, sid) ]} |>
       <| sess_q ::= fun i => i ∪ {[ (now s + p_sess_delay (pars s), sid) ]} |>).

(* the subscription covers the node (its own node, or a node linked to the plan and leased by the plan's
   provider), and a holder of quota still has some *)
Lemma h_sess_start_effect s from id nd s' :
  h_sess_start s from id nd = Ok s' ->
  exists sb n latest,
    subs s !! id = Some sb /\ sb_status sb = SActive /\
    get_node s (ta_bytes nd) = Some n /\ nd_status n = SActive /\
    latest_session_for_alloc s id (ta_bytes from) = Ok latest /\
    (forall x, latest = Some x -> ss_status x <> SActive) /\
    match sb_kind sb with
    | KNode sn _ _ _ => nd_addr n = sn /\ from = canon RAcc (sb_addr sb)
    | KPlan pid _ => exists p po, get_plan s pid = Some p /\ latest_payout_for s (pl_prov p) (ta_bytes nd) = Ok (Some po) /\
                                  (pid, ta_bytes nd) ∈ node_plan s
    end /\
    (match sb_kind sb with KNode _ _ h _ => h <> 0 | KPlan _ _ => False end \/
     exists al, allocs s !! (id, ta_bytes from) = Some al /\ al_used al < al_granted al) /\
    s' = session_start_state s id (ta_bytes from) (ta_bytes nd).
Proof.
  unfold h_sess_start. intros H. destruct (subs s !! id) as [sb|]; [|discriminate].
  apply rbind_ok in H as (u1 & Hact & H). apply ensure_ok, bool_decide_eq_true in Hact.
  destruct (get_node s (ta_bytes nd)) as [n|]; [|discriminate].
  apply rbind_ok in H as (u2 & Hn & H). apply ensure_ok, bool_decide_eq_true in Hn.
  apply rbind_ok in H as (u3 & Hcov & H). apply rbind_ok in H as (ca & Hca & H). apply rbind_ok in H as (u4 & Hal & H).
  apply rbind_ok in H as (latest & Hl & H). apply rbind_ok in H as (u5 & Hna & H). apply ensure_ok in Hna.
  injection H as <-. exists sb, n, latest. repeat (split; [assumption || reflexivity|]).
  split; [intros x ->; apply negb_true_iff, bool_decide_eq_false in Hna; exact Hna|].
  assert (Hq : ca = true -> exists al, allocs s !! (id, ta_bytes from) = Some al /\ al_used al < al_granted al).
  { intros ->. destruct (allocs s !! (id, ta_bytes from)) as [al|]; [|discriminate].
    apply ensure_ok, negb_true_iff, Z.leb_gt in Hal. eauto. }
  split; [|split; [|reflexivity]]; destruct (sb_kind sb) as [sn g h dep|pid dn].
  - apply ensure_ok, bool_decide_eq_true in Hcov. apply rbind_ok in Hca as (u6 & Ho & _).
    apply ensure_ok, bool_decide_eq_true in Ho. auto.
  - destruct (get_plan s pid) as [p|]; [|discriminate]. apply rbind_ok in Hcov as (po & Hpo & Hcov).
    apply rbind_ok in Hcov as (u6 & Hsome & Hlnk). apply ensure_ok, bool_decide_eq_true in Hlnk.
    apply ensure_ok, bool_decide_eq_true in Hsome. destruct Hsome as [po0 ->]. eauto.
  - apply rbind_ok in Hca as (u6 & _ & Hca). injection Hca as <-.
    destruct (h =? 0) eqn:Eh; [right; auto|left; apply Z.eqb_neq; exact Eh].
  - injection Hca as <-. right. auto.
Qed.

(** * session.EndBlock, one due session *)

Definition session_pending (s : state) (x : session) : session :=
  x <| ss_inactive_at := now s + p_sess_delay (pars s) |> <| ss_status := SPending |> <| ss_status_at := now s |>.

Definition session_status_event (st : status) (x : session) : event :=
  ev "session.EventUpdateStatus" [VS st; VT (canon RAcc (ss_addr x)); VT (canon RNode (ss_node x)); VZ (ss_id x); VZ (ss_sub x)].

(* an active session whose deadline passed becomes pending ([session_make_pending]); a pending one is settled
   ([s1]: the state after the settlement hook) and removed *)
Definition session_remove_state (s1 : state) (x : session) : state :=
  emit (session_status_event SInactive x)
    (s1 <| sessions ::= delete (ss_id x) |>
        <| sess_acc ::= fun i => i ∖ {[ (ss_addr x, ss_id x) ]} |> <| sess_node ::= fun i => i ∖ {[ (ss_node x, ss_id x) ]} |>
        <| sess_sub ::= fun i => i ∖ {[ (ss_sub x, ss_id x) ]} |> <| sess_alloc ::= fun i => i ∖ {[ (ss_sub x, ss_addr x, ss_id x) ]} |>).

Lemma session_expire_one_effect s e s' :
  session_expire_one s e = Ok s' ->
  exists x, sessions s !! e.2 = Some x /\
    (ss_status x = SActive /\ s' = session_make_pending s x \/
     ss_status x <> SActive /\ fits (ss_up x + ss_down x) = true /\
     exists s1, session_inactive_hook (s <| sess_q ::= fun q => q ∖ {[ (ss_inactive_at x, ss_id x) ]} |>)
                  (ss_id x) (ss_addr x) (ss_node x) (ss_up x + ss_down x) = Ok s1 /\
                s' = session_remove_state s1 x).
Proof.
  unfold session_expire_one. intros H. destruct (sessions s !! e.2) as [x|]; [|discriminate]. exists x. split; [reflexivity|].
  case_bool_decide as Hst.
  - left. injection H as <-. split; [exact Hst|]. unfold session_make_pending. state_eq.
  - right. apply rbind_ok in H as (t & Ht & H). pose proof (chk_fits _ _ Ht) as Ht'. apply chk_ok in Ht as ->. rename Ht' into Ht.
    apply rbind_ok in H as (s1 & Hs1 & H). apply must_ok in Hs1. injection H as <-.
    split; [exact Hst|]. split; [exact Ht|]. exists s1. split; [exact Hs1|reflexivity].
Qed.

(** * SessionInactiveHook: settlement of a session that is being removed *)

(* the usage of allocation [al] grows to [used'] *)
Definition usage_state (s : state) (al : allocation) (used' : Z) : state :=
  emit (ev "subscription.EventAllocate" [VT (canon RAcc (al_addr al)); VZ (al_granted al); VZ used'; VZ (al_id al)])
    (s <| allocs ::= insert (al_id al, al_addr al) (al <| al_used := used' |>) |>).

Definition settle_event (x : session) (dn : denom) (payment fee : Z) : event :=
  ev "subscription.EventPayForSession" [VT (canon RAcc (ss_addr x)); VT (canon RNode (ss_node x)); VC [(dn, payment)];
     VC [(dn, fee)]; VZ (ss_id x); VZ (ss_sub x)].

(* reported bytes beyond what is left of the grant are cut off *)
Definition clamp_used (al : allocation) (bytes : Z) : Z :=
  if al_granted al - al_used al <? bytes then al_granted al else al_used al + bytes.

Lemma session_inactive_hook_effect s sid acc nd bytes s' :
  session_inactive_hook s sid acc nd bytes = Ok s' ->
  exists x sb, sessions s !! sid = Some x /\ ss_status x = SPending /\ subs s !! ss_sub x = Some sb /\
    match sb_kind sb with
    | KNode _ g h dep =>
        if negb (h =? 0) then s' = s
        else exists al, allocs s !! (sb_id sb, acc) = Some al /\
          let used' := clamp_used al bytes in
          if g =? 0 then s' = usage_state s al used'
          else exists prev cur fee s2 s3,
            let price := Z.quot dep.2 g in
            0 <= price /\ amount_for_bytes price (al_used al) = Ok prev /\ amount_for_bytes price used' = Ok cur /\
            0 <= cur - prev /\ proportion (cur - prev) (p_node_share (pars s)) = Ok fee /\ 0 <= cur - prev - fee /\
            z_dep_to_module (usage_state s al used') acc (c_feecoll (cfg s)) (dep.1, fee) = Ok s2 /\
            z_dep_to_account s2 acc nd (dep.1, cur - prev - fee) = Ok s3 /\
            s' = emit (settle_event x dep.1 (cur - prev - fee) fee) s3
    | KPlan _ _ => exists al, allocs s !! (sb_id sb, acc) = Some al /\ s' = usage_state s al (clamp_used al bytes)
    end.
Proof.
  unfold session_inactive_hook. intros H. destruct (sessions s !! sid) as [x|]; [|discriminate].
  apply rbind_ok in H as (u & Hp & H). apply ensure_ok, bool_decide_eq_true in Hp.
  exists x. destruct (subs s !! ss_sub x) as [sb|]; [|discriminate]. exists sb. do 3 (split; [reflexivity || assumption|]).
  assert (Hused : forall al r u', int_sub (al_granted al) (al_used al) = Ok r ->
            (if r <? bytes then Ok (al_granted al) else int_add (al_used al) bytes) = Ok u' -> u' = clamp_used al bytes).
  { intros al r u' Hr Hu. apply int_sub_ok in Hr as ->. unfold clamp_used. destruct (_ <? bytes); [congruence|].
    apply int_add_ok in Hu. exact Hu. }
  destruct (sb_kind sb) as [n g h dep|pid dn].
  - destruct (negb (h =? 0)); [injection H as <-; reflexivity|].
    destruct (allocs s !! (sb_id sb, acc)) as [al|]; [|discriminate]. exists al. split; [reflexivity|].
    destruct (g =? 0).
    + apply rbind_ok in H as ([price prev] & Hpp & H). apply rbind_ok in H as (r & Hr & H).
      apply rbind_ok in H as (u' & Hu & H). rewrite (Hused _ _ _ Hr Hu) in H. injection H as <-. reflexivity.
    + apply rbind_ok in H as ([price prev] & Hpp & H).
      apply rbind_ok in Hpp as (pr & Hpr & Hpp). apply int_quo_ok in Hpr as [_ ->].
      apply rbind_ok in Hpp as (pc & Hpc & Hpp). apply new_coin_ok in Hpc as [-> Hpr0].
      apply rbind_ok in Hpp as (prev' & Hprev & Hpp). injection Hpp as <- <-.
      apply rbind_ok in H as (r & Hr & H). apply rbind_ok in H as (u' & Hu & H). rewrite (Hused _ _ _ Hr Hu) in H. clear Hused Hr Hu r u'.
      apply rbind_ok in H as (cur & Hcur & H). apply rbind_ok in H as (diff & Hdiff & H). apply int_sub_ok in Hdiff as ->.
      apply rbind_ok in H as (pay & Hpay & H). apply new_coin_ok in Hpay as [-> Hdiff0].
      apply rbind_ok in H as (fee & Hfee & H). apply rbind_ok in H as (s2 & Hs2 & H).
      apply rbind_ok in H as (pm & Hpm & H). apply coin_sub_ok in Hpm as [-> Hpm0].
      apply rbind_ok in H as (s3 & Hs3 & H). injection H as <-. cbn [fst snd] in *.
      exists prev', cur, fee, s2, s3. auto 12.
  - destruct (allocs s !! (sb_id sb, acc)) as [al|]; [|discriminate]. exists al. split; [reflexivity|].
    apply rbind_ok in H as ([price prev] & Hpp & H). apply rbind_ok in H as (r & Hr & H).
    apply rbind_ok in H as (u' & Hu & H). rewrite (Hused _ _ _ Hr Hu) in H. injection H as <-. reflexivity.
Qed.

Definition detach_state (s : state) (po : payout) : state :=
  s <| pay_acc_node ::= fun x => x ∖ {[ (po_addr po, po_node po, po_id po) ]} |>
    <| pay_q ::= fun x => x ∖ {[ (po_next_at po, po_id po) ]} |>
    <| payouts ::= insert (po_id po) (po <| po_next_at := tzero |>) |>.

(* [None]: nothing to detach (plan subscription, or no hours were bought) *)
Definition payout_of (s : state) (sb : subscription) : option (option payout) :=
  match sb_kind sb with
  | KNode _ _ h _ => if h =? 0 then None else Some (payouts s !! sb_id sb)
  | KPlan _ _ => None
  end.

Lemma detach_payout_effect s sb missing s' :
  detach_payout s sb missing = Ok s' ->
  match payout_of s sb with
  | None => s' = s
  | Some (Some po) => s' = detach_state s po
  | Some None => missing = Ok s'
  end.
Proof.
  unfold detach_payout, payout_of. destruct (sb_kind sb) as [n g h dep|]; [|intros [= <-]; reflexivity].
  destruct (h =? 0); [intros [= <-]; reflexivity|]. destruct (payouts s !! sb_id sb); [intros [= <-]; reflexivity|auto].
Qed.

Definition payout_delete_state (s : state) (po : payout) : state :=
  s <| payouts ::= delete (po_id po) |> <| pay_acc ::= fun i => i ∖ {[ (po_addr po, po_id po) ]} |>
    <| pay_node ::= fun i => i ∖ {[ (po_node po, po_id po) ]} |>.

Lemma sub_delete_payout_effect s sb s' :
  sub_delete_payout s sb = Ok s' ->
  match payout_of s sb with
  | None => s' = s
  | Some (Some po) => s' = payout_delete_state s po
  | Some None => False
  end.
Proof.
  unfold sub_delete_payout, payout_of. destruct (sb_kind sb) as [n g h dep|]; [|intros [= <-]; reflexivity].
  destruct (h =? 0); [intros [= <-]; reflexivity|]. destruct (payouts s !! sb_id sb); [intros [= <-]; reflexivity|discriminate].
Qed.

(** * subscription.EndBlock, one due subscription; MsgCancel *)

Definition sub_unqueue (s : state) (sb : subscription) : state :=
  s <| sub_q ::= fun q => q ∖ {[ (sb_inactive_at sb, sb_id sb) ]} |>.

Definition sub_removed_state (s1 : state) (sb : subscription) : state :=
  emit (ev "subscription.EventUpdateStatus" [VS SInactive; VT (canon RAcc (sb_addr sb)); VZ (sb_id sb)])
    (sub_cleanup s1 sb <| subs ::= delete (sb_id sb) |>).

(* an active subscription is demoted: its active sessions become pending, then the subscription, then
   its payout is detached; a pending one is refunded, its allocations and index entries deleted, then the
   record, then its payout *)
Lemma sub_expire_one_effect s e s' :
  sub_expire_one s e = Ok s' ->
  exists sb, subs s !! e.2 = Some sb /\
    (sb_status sb = SActive /\ (exists s1, sub_pending_hook (sub_unqueue s sb) (sb_id sb) = Ok s1 /\
                                           detach_payout (sub_make_pending s1 sb) sb Panic = Ok s') \/
     sb_status sb <> SActive /\ (exists s1, sub_refund (sub_unqueue s sb) sb = Ok s1 /\
                                            sub_delete_payout (sub_removed_state s1 sb) sb = Ok s')).
Proof.
  unfold sub_expire_one. intros H. destruct (subs s !! e.2) as [sb|]; [|discriminate]. exists sb. split; [reflexivity|].
  case_bool_decide as Hst; [left|right]; (split; [exact Hst|]); apply rbind_ok in H as (s1 & Hs1 & H); exists s1.
  - apply must_ok in Hs1. auto.
  - auto.
Qed.

Lemma h_sub_cancel_effect s from id s' :
  h_sub_cancel s from id = Ok s' ->
  exists sb s1, subs s !! id = Some sb /\ sb_status sb = SActive /\ ta_bytes from = sb_addr sb /\
    sub_pending_hook (s <| sub_q ::= fun q => q ∖ {[ (sb_inactive_at sb, id) ]} |>) id = Ok s1 /\
    detach_payout (sub_make_pending s1 sb) sb Err = Ok s'.
Proof.
  unfold h_sub_cancel. intros H. destruct (subs s !! id) as [sb|]; [|discriminate].
  apply rbind_ok in H as (u1 & Hact & H). apply ensure_ok, bool_decide_eq_true in Hact.
  apply rbind_ok in H as (u2 & Hown & H). apply ensure_ok, bool_decide_eq_true in Hown.
  apply rbind_ok in H as (s1 & Hs1 & H). exists sb, s1. auto.
Qed.

(* the receiver's allocation as the handler sees it: the stored one, or an empty new one *)
Definition share_target (s : state) (id : Z) (ta : addr) : allocation :=
  default {| al_id := id; al_addr := ta; al_granted := 0; al_used := 0 |} (allocs s !! (id, ta)).

Definition share_state (s : state) (id : Z) (fa ta : addr) (fal : allocation) (bytes : Z) : state :=
  let tal := share_target s id ta in
  let fg := al_granted fal + al_granted tal - bytes in
  emit (ev "subscription.EventAllocate" [VT (canon RAcc ta); VZ bytes; VZ (al_used tal); VZ id])
    (emit (ev "subscription.EventAllocate" [VT (canon RAcc fa); VZ fg; VZ (al_used fal); VZ id])
       (s <| sub_acc ::= fun x => if bool_decide (is_Some (allocs s !! (id, ta))) then x else x ∪ {[ (ta, id) ]} |>
          <| allocs ::= insert (id, fa) (fal <| al_granted := fg |>) |>)
       <| allocs ::= insert (id, ta) (tal <| al_granted := bytes |>) |>).

Lemma h_sub_allocate_effect s from id to bytes s' :
  h_sub_allocate s from id to bytes = Ok s' ->
  exists sb fal,
    let fa := ta_bytes from in let ta := ta_bytes to in let tal := share_target s id ta in
    subs s !! id = Some sb /\ (exists pid dn, sb_kind sb = KPlan pid dn) /\ fa = sb_addr sb /\
    allocs s !! (id, fa) = Some fal /\ fa <> ta /\
    bytes <= al_granted fal + al_granted tal - (al_used fal + al_used tal) /\
    al_used fal <= al_granted fal + al_granted tal - bytes /\ al_used tal <= bytes /\
    fits (al_granted fal + al_granted tal) = true /\
    s' = share_state s id fa ta fal bytes.
Proof.
  unfold h_sub_allocate. intros H. destruct (subs s !! id) as [sb|]; [|discriminate]. exists sb.
  apply rbind_ok in H as (u1 & Hk & H). apply ensure_ok in Hk.
  apply rbind_ok in H as (u2 & Hown & H). apply ensure_ok, bool_decide_eq_true in Hown.
  destruct (allocs s !! (id, ta_bytes from)) as [fal|]; [|discriminate]. exists fal. cbv zeta.
  apply rbind_ok in H as (u3 & Hne & H). apply ensure_ok, negb_true_iff, bool_decide_eq_false in Hne.
  split; [reflexivity|]. split; [destruct (sb_kind sb); [discriminate|eauto]|]. do 3 (split; [assumption || reflexivity|]).
  unfold share_state, share_target.
  destruct (allocs s !! (id, ta_bytes to)) as [tal|]; cbn [default is_Some] in *.
  all: apply rbind_ok in H as (gr & Hgr & H); pose proof (chk_fits _ _ Hgr) as Hfit; apply int_add_ok in Hgr as ->;
    apply rbind_ok in H as (ut & Hut & H); apply int_add_ok in Hut as ->;
    apply rbind_ok in H as (av & Hav & H); apply int_sub_ok in Hav as ->;
    apply rbind_ok in H as (u4 & Hb & H); apply ensure_ok, negb_true_iff, Z.ltb_ge in Hb;
    apply rbind_ok in H as (fg & Hfg & H); apply int_sub_ok in Hfg as ->;
    apply rbind_ok in H as (u5 & Hfu & H); apply ensure_ok, negb_true_iff, Z.ltb_ge in Hfu;
    apply rbind_ok in H as (u6 & Htu & H); apply ensure_ok, negb_true_iff, Z.ltb_ge in Htu;
    injection H as <-; do 4 (split; [assumption|]).
  - rewrite bool_decide_eq_true_2 by eauto. reflexivity.
  - rewrite bool_decide_eq_false_2 by (intros [? ?]; discriminate). reflexivity.
Qed.

(** * MsgUpdateStatus of a node; node.EndBlock *)

Definition node_with_status (s : state) (n : node) (st : status) : node :=
  n <| nd_inactive_at := if bool_decide (st = SActive) then now s + p_node_active (pars s)
                         else if bool_decide (st = SInactive) then tzero else nd_inactive_at n |>
    <| nd_status := st |> <| nd_status_at := now s |>.

(* [a]: the address in the message, under which the old record is looked up and unfiled; the new
   record is stored under its own address *)
Definition node_status_state (s : state) (a : addr) (n : node) (st : status) : state :=
  let n' := node_with_status s n st in
  emit (ev "node.EventUpdateStatus" [VS st; VT (canon RNode a)])
    (s <| node_q ::= fun q =>
            let q1 := if bool_decide (nd_status n = SActive) then q ∖ {[ (nd_inactive_at n, a) ]} else q in
            if bool_decide (st = SActive) then q1 ∪ {[ (now s + p_node_active (pars s), a) ]} else q1 |>
       <| node_act ::= fun m =>
            if bool_decide (st = SActive) then <[nd_addr n := n']> m
            else if bool_decide (nd_status n = SActive) then delete a m else m |>
       <| node_inact ::= fun m =>
            if bool_decide (st = SInactive) then <[nd_addr n := n']> m
            else if bool_decide (nd_status n = SInactive) then delete a m else m |>).

Lemma set_node_ok s n s' : set_node s n = Ok s' -> nd_status n = SActive \/ nd_status n = SInactive.
Proof. unfold set_node. destruct (nd_status n); try discriminate; auto. Qed.

Lemma h_node_update_status_effect s from st s' :
  h_node_update_status s from st = Ok s' ->
  exists n, get_node s (ta_bytes from) = Some n /\ (st = SActive \/ st = SInactive) /\
            s' = node_status_state s (ta_bytes from) n st.
Proof.
  unfold h_node_update_status. intros H. destruct (get_node s (ta_bytes from)) as [n|]; [|discriminate]. exists n.
  split; [reflexivity|].
  assert (Hst : st = SActive \/ st = SInactive).
  { match type of H with (let '(s3, n1) := ?p in _) = _ => destruct p as [s3 n1] end.
    apply rbind_ok in H as (s4 & H4 & _). exact (set_node_ok _ _ _ H4). }
  split; [exact Hst|]. unfold node_status_state, node_with_status.
  destruct Hst as [-> | ->]; repeat case_bool_decide; try (exfalso; intuition congruence);
    unfold set_node in H; cbn [nd_status set rbind] in H; injection H as <-; reflexivity.
Qed.

(* the figures the node reports are stored; the deadline of a session that is still active moves on *)
Definition session_reported (s : state) (x : session) (up down du : Z) : session :=
  x <| ss_inactive_at := if bool_decide (ss_status x = SActive) then now s + p_sess_delay (pars s) else ss_inactive_at x |>
    <| ss_up := up |> <| ss_down := down |> <| ss_duration := du |>.

Definition session_update_state (s : state) (id : Z) (x : session) (up down du : Z) : state :=
  emit (ev "session.EventUpdateDetails" [VT (canon RAcc (ss_addr x)); VT (canon RNode (ss_node x)); VZ id; VZ (ss_sub x)])
    (s <| sess_q ::= fun q => if bool_decide (ss_status x = SActive)
                              then (q ∖ {[ (ss_inactive_at x, id) ]}) ∪ {[ (now s + p_sess_delay (pars s), id) ]} else q |>
       <| sessions ::= insert id (session_reported s x up down du) |>).

Lemma h_sess_update_effect s from id up down du ok s' :
  h_sess_update s from id up down du ok = Ok s' ->
  exists x, sessions s !! id = Some x /\ ss_status x <> SInactive /\ from = canon RNode (ss_node x) /\
    (p_sess_proof (pars s) = true -> ok = true) /\ s' = session_update_state s id x up down du.
Proof.
  unfold h_sess_update. intros H. destruct (sessions s !! id) as [x|]; [|discriminate]. exists x. split; [reflexivity|].
  apply rbind_ok in H as (u1 & Hni & H). apply ensure_ok, negb_true_iff, bool_decide_eq_false in Hni.
  apply rbind_ok in H as (u2 & Hown & H). apply ensure_ok, bool_decide_eq_true in Hown.
  apply rbind_ok in H as (u3 & Hp & H). apply ensure_ok in Hp.
  split; [exact Hni|]. split; [exact Hown|]. split; [intros E; rewrite E in Hp; exact Hp|].
  unfold session_update_state, session_reported. case_bool_decide; injection H as <-; state_eq.
Qed.

Lemma h_sess_end_effect s from id s' :
  h_sess_end s from id = Ok s' ->
  exists x, sessions s !! id = Some x /\ ss_status x = SActive /\ from = canon RAcc (ss_addr x) /\
    s' = session_make_pending s x.
Proof.
  unfold h_sess_end. intros H. destruct (sessions s !! id) as [x|]; [|discriminate]. exists x. split; [reflexivity|].
  apply rbind_ok in H as (u1 & Hact & H). apply ensure_ok, bool_decide_eq_true in Hact.
  apply rbind_ok in H as (u2 & Hown & H). apply ensure_ok, bool_decide_eq_true in Hown.
  injection H as <-. auto.
Qed.

Definition refund_state (s0 : state) (sb : subscription) (c : coin) : state :=
  emit (ev "subscription.EventRefund" [VT (canon RAcc (sb_addr sb)); VC [c]; VZ (sb_id sb)]) s0.

(* [c] is paid out of the deposit record of [a] to [a] itself *)
Definition refunded (s : state) (sb : subscription) (a : addr) (c : coin) (s' : state) : Prop :=
  0 <= c.2 /\ exists s0, z_dep_to_account s a a c = Ok s0 /\ s' = refund_state s0 sb c.

(* first what is left of a per-gigabyte deposit, then the unpaid hours *)
Lemma sub_refund_effect s sb s' :
  sub_refund s sb = Ok s' ->
  match sb_kind sb with
  | KPlan _ _ => s' = s
  | KNode _ g h dep =>
      exists s1,
        (if g =? 0 then s1 = s else
         exists al paid,
           allocs s !! (sb_id sb, sb_addr sb) = Some al /\ 0 <= Z.quot dep.2 g /\
           amount_for_bytes (Z.quot dep.2 g) (al_used al) = Ok paid /\
           refunded s sb (sb_addr sb) (dep.1, dep.2 - paid) s1) /\
        (if h =? 0 then s' = s1 else
         exists po, payouts s1 !! sb_id sb = Some po /\
           refunded s1 sb (po_addr po) ((po_price po).1, (po_price po).2 * po_hours po) s')
  end.
Proof.
  unfold sub_refund. intros H. destruct (sb_kind sb) as [n g h dep|]; [|injection H as <-; reflexivity].
  apply rbind_ok in H as (s1 & H1 & H). exists s1. split.
  - clear H. destruct (g =? 0); [injection H1 as <-; reflexivity|]. cbn [negb] in H1.
    apply rbind_ok in H1 as (pr & Hpr & H1). apply int_quo_ok in Hpr as [_ ->].
    apply rbind_ok in H1 as (pc & Hpc & H1). apply new_coin_ok in Hpc as [_ Hpr0].
    destruct (allocs s !! (sb_id sb, sb_addr sb)) as [al|]; [|discriminate].
    apply rbind_ok in H1 as (paid & Hpaid & H1). apply rbind_ok in H1 as (r & Hr & H1). apply int_sub_ok in Hr as ->.
    apply rbind_ok in H1 as (c & Hc & H1). apply new_coin_ok in Hc as [-> Hr0].
    apply rbind_ok in H1 as (s0 & Hs0 & H1). apply must_ok in Hs0. injection H1 as <-.
    exists al, paid. do 3 (split; [assumption || reflexivity|]). split; [exact Hr0|]. exists s0. split; [exact Hs0|reflexivity].
  - clear H1. destruct (h =? 0); [injection H as <-; reflexivity|]. cbn [negb] in H.
    destruct (payouts s1 !! sb_id sb) as [po|]; [|discriminate]. exists po. split; [reflexivity|].
    apply rbind_ok in H as (r & Hr & H). apply int_mul_ok in Hr as ->.
    apply rbind_ok in H as (c & Hc & H). apply new_coin_ok in Hc as [-> Hr0].
    apply rbind_ok in H as (s0 & Hs0 & H). apply must_ok in Hs0. injection H as <-.
    split; [exact Hr0|]. exists s0. split; [exact Hs0|reflexivity].
Qed.

(* [s2]: the state after minting to the swap module and sending on to the receiver *)
Definition swap_state (s2 : state) (hash : list N) (receiver : taddr) (c : coin) : state :=
  emit (ev "swap.EventSwap" [VH hash; VT receiver])
    (s2 <| swaps ::= insert hash {| sw_hash := hash; sw_receiver := receiver; sw_amount := c |} |>).

Lemma h_swap_effect s from hash receiver amount s' :
  h_swap s from hash receiver amount = Ok s' ->
  exists s1 s2,
    let c := (p_swap_denom (pars s), Z.quot amount 100) in
    p_swap_enabled (pars s) = true /\ p_swap_approver (pars s) = from /\ swaps s !! hash = None /\ 0 <= c.2 /\
    bank_mint s (c_swap (cfg s)) c.1 c.2 = Ok s1 /\
    bank_send_to_account s1 (c_swap (cfg s)) (ta_bytes receiver) c.1 c.2 = Ok s2 /\
    s' = swap_state s2 hash receiver c.
Proof.
  unfold h_swap. intros H.
  apply rbind_ok in H as (u1 & He & H). apply ensure_ok in He.
  apply rbind_ok in H as (u2 & Ha & H). apply ensure_ok, bool_decide_eq_true in Ha.
  apply rbind_ok in H as (u3 & Hn & H). apply ensure_ok, negb_true_iff, bool_decide_eq_false in Hn.
  apply rbind_ok in H as (q & Hq & H). apply int_quo_ok in Hq as [_ ->].
  apply rbind_ok in H as (c & Hc & H). apply new_coin_ok in Hc as [-> Hq0].
  apply rbind_ok in H as (s1 & Hs1 & H). apply rbind_ok in H as (s2 & Hs2 & H). injection H as <-.
  exists s1, s2. cbv zeta. split; [exact He|]. split; [exact Ha|].
  split; [apply eq_None_not_Some; exact Hn|]. auto.
Qed.

Lemma h_node_subscribe_effect s from nd g h dn s' :
  h_node_subscribe s from nd g h dn = Ok s' ->
  exists s1 id,
    (g =? 0) || valid_sub_gb s g = true /\ (h =? 0) || valid_sub_hr s h = true /\
    create_sub_for_node s (ta_bytes from) (ta_bytes nd) g h dn = Ok (s1, id) /\
    s' = emit (ev "node.EventCreateSubscription" [VT (canon RAcc (ta_bytes from)); VT (canon RNode (ta_bytes nd)); VZ id]) s1.
Proof.
  unfold h_node_subscribe. intros H. apply rbind_ok in H as (u1 & Hg & H). apply ensure_ok in Hg.
  apply rbind_ok in H as (u2 & Hh & H). apply ensure_ok in Hh. apply rbind_ok in H as ([s1 id] & Hc & H).
  injection H as <-. exists s1, id. auto.
Qed.

Lemma h_plan_subscribe_effect s from pid dn s' :
  h_plan_subscribe s from pid dn = Ok s' ->
  exists s1 id,
    create_sub_for_plan s (ta_bytes from) pid dn = Ok (s1, id) /\
    s' = emit (ev "plan.EventCreateSubscription" [VT (canon RAcc (ta_bytes from)); VZ id; VZ pid]) s1.
Proof.
  unfold h_plan_subscribe. intros H. apply rbind_ok in H as ([s1 id] & Hc & H). injection H as <-. exists s1, id. auto.
Qed.

Definition new_provider (s : state) (from : taddr) (name identity website description : string) : provider :=
  {| pv_addr := ta_bytes from; pv_name := name; pv_identity := identity; pv_website := website;
     pv_description := description; pv_status := SInactive; pv_status_at := now s |}.

(* [s1]: the state after the deposit was paid *)
Definition provider_register_state (s1 : state) (p : provider) : state :=
  emit (ev "provider.EventRegister" [VT (canon RProv (pv_addr p))]) (s1 <| prov_inact ::= insert (pv_addr p) p |>).

Lemma h_prov_register_effect s from n i w d s' :
  h_prov_register s from n i w d = Ok s' ->
  exists s1, has_provider s (ta_bytes from) = false /\
    fund_pool s (ta_bytes from) (p_prov_deposit (pars s)) = Ok s1 /\
    s' = provider_register_state s1 (new_provider s from n i w d).
Proof.
  unfold h_prov_register. intros H. apply rbind_ok in H as (u & Hn & H). apply ensure_ok, negb_true_iff in Hn.
  apply rbind_ok in H as (s1 & H1 & H). apply rbind_ok in H as (s2 & H2 & H). injection H2 as <-. injection H as <-.
  exists s1. auto.
Qed.

Definition new_node (s : state) (from : taddr) (gb hr : list coin) (url : string) : node :=
  {| nd_addr := ta_bytes from; nd_gb_prices := coins_of gb; nd_hr_prices := coins_of hr; nd_url := url;
     nd_inactive_at := tzero; nd_status := SInactive; nd_status_at := now s |}.

Definition node_register_state (s1 : state) (n : node) : state :=
  emit (ev "node.EventRegister" [VT (canon RNode (nd_addr n))]) (s1 <| node_inact ::= insert (nd_addr n) n |>).

Lemma h_node_register_effect s from gb hr url s' :
  h_node_register s from gb hr url = Ok s' ->
  exists s1, valid_gb_prices s (coins_of gb) = true /\ valid_hr_prices s (coins_of hr) = true /\
    has_node s (ta_bytes from) = false /\
    fund_pool s (ta_bytes from) (p_node_deposit (pars s)) = Ok s1 /\
    s' = node_register_state s1 (new_node s from gb hr url).
Proof.
  unfold h_node_register. intros H. apply rbind_ok in H as (u1 & Hg & H). apply ensure_ok in Hg.
  apply rbind_ok in H as (u2 & Hh & H). apply ensure_ok in Hh.
  apply rbind_ok in H as (u3 & Hn & H). apply ensure_ok, negb_true_iff in Hn.
  apply rbind_ok in H as (s1 & H1 & H). apply rbind_ok in H as (s2 & H2 & H). injection H2 as <-. injection H as <-.
  exists s1. auto.
Qed.

Lemma step_inv s o s' :
  step s o = OOk s' ->
  match o with
  | OBegin t => begin_block (clear_events s <| now := t |>) = Ok s'
  | OTx m => validate_basic m = true /\ handle (clear_events s) m = Ok s'
  | OGov cs => forallb pchange_valid cs = true /\ s' = fold_left apply_pchange cs (clear_events s)
  | OEnd => exists s1, end_block (clear_events s) = Ok s1 /\ s' = s1 <| modified := no_flags |>
  end.
Proof.
  unfold step. destruct o as [t|m|cs|].
  - destruct (begin_block _) as [x| |]; try discriminate. intros [= <-]. reflexivity.
  - unfold run_tx. destruct (validate_basic m); [|discriminate].
    destruct (handle _ m) as [x| |]; try discriminate. intros [= <-]. auto.
  - destruct (forallb pchange_valid cs); [|discriminate]. intros [= <-]. auto.
  - destruct (end_block _) as [x| |]; try discriminate. intros [= <-]. eauto.
Qed.

Lemma begin_block_effect s s' :
  begin_block s = Ok s' -> exists s1, mint_begin_block s = Ok s1 /\ sub_begin_block s1 = Ok s'.
Proof. apply rbind_ok. Qed.

Lemma end_block_effect s s' :
  end_block s = Ok s' ->
  exists s1 s2, node_end_block s = Ok s1 /\ session_end_block s1 = Ok s2 /\ sub_end_block s2 = Ok s'.
Proof. intros H. apply rbind_ok in H as (s1 & H1 & H). apply rbind_ok in H as (s2 & H2 & H). eauto. Qed.

(* the hook only rewrites sessions to their pending form: a property of session records that this form
   keeps holds of all sessions afterwards *)
Lemma sub_pending_hook_forall (P : session -> Prop) s id s' :
  sub_pending_hook s id = Ok s' -> (forall x, P x -> P (session_pending s x)) ->
  map_Forall (fun _ => P) (sessions s) -> map_Forall (fun _ => P) (sessions s').
Proof.
  unfold sub_pending_hook. intros H HP Hall.
  eapply (rfold_inv (fun y => (now y = now s /\ pars y = pars s) /\ map_Forall (fun _ => P) (sessions y))) in H;
    [exact (proj2 H)| |split; [split; reflexivity|exact Hall]].
  intros a sid b [[N Q] Ha] Hstep. cbv beta in Hstep. destruct (sessions a !! sid) as [x|] eqn:Hx; [|discriminate].
  case_bool_decide; injection Hstep as <-; [|auto]. split; [auto|]. apply map_Forall_insert_2; [|exact Ha].
  change (P (session_pending a x)). unfold session_pending. rewrite N, Q. exact (HP x (Ha _ _ Hx)).
Qed.

(** * what stateless validation guarantees *)

Lemma vb_node_register from gb hr url url_ok :
  validate_basic (MNodeRegister from gb hr url url_ok) = true ->
  ta_valid RAcc from = true /\ coins_field_ok gb = true /\ coins_field_ok hr = true /\ slen url <> 0 /\
  (slen url <=? 64) = true /\ url_ok = true.
Proof. simpl. unfold is_empty. rewrite !andb_true_iff, negb_true_iff, Z.eqb_neq. tauto. Qed.

Lemma vb_node_subscribe from nd g h dn :
  validate_basic (MNodeSubscribe from nd g h dn) = true ->
  ta_valid RAcc from = true /\ ta_valid RNode nd = true /\ (g =? 0) && (h =? 0) = false /\
  negb (g =? 0) && negb (h =? 0) = false /\ 0 <= g /\ 0 <= h /\ dn <> 0%N.
Proof. simpl. unfold denom_ok. rewrite !andb_true_iff, !negb_true_iff, N.eqb_neq, !Z.leb_le. tauto. Qed.

Lemma vb_sub_allocate from id to bytes :
  validate_basic (MSubAllocate from id to bytes) = true ->
  ta_valid RAcc from = true /\ id <> 0 /\ ta_valid RAcc to = true /\ 0 <= bytes < MAXINT.
Proof. simpl. rewrite !andb_true_iff, negb_true_iff, Z.eqb_neq, Z.leb_le, Z.ltb_lt. tauto. Qed.

Lemma vb_sess_start from id nd :
  validate_basic (MSessStart from id nd) = true -> ta_valid RAcc from = true /\ id <> 0 /\ ta_valid RNode nd = true.
Proof. simpl. rewrite !andb_true_iff, negb_true_iff, Z.eqb_neq. tauto. Qed.

Lemma vb_sess_update from id up down du sig_len sig_ok :
  validate_basic (MSessUpdate from id up down du sig_len sig_ok) = true ->
  ta_valid RNode from = true /\ id <> 0 /\ 0 <= up < MAXINT /\ 0 <= down < MAXINT /\ up + down < MAXINT /\ 0 <= du.
Proof. simpl. rewrite !andb_true_iff, negb_true_iff, Z.eqb_neq, !Z.leb_le, !Z.ltb_lt. tauto. Qed.

Lemma vb_swap from hash receiver amount :
  validate_basic (MSwap from hash receiver amount) = true ->
  ta_valid RAcc from = true /\ ta_valid RAcc receiver = true /\ Z.of_nat (length hash) = 32 /\ 100 <= amount < MAXINT.
Proof. simpl. rewrite !andb_true_iff, Z.eqb_eq, Z.leb_le, Z.ltb_lt. tauto. Qed.

Lemma vb_prov_register from name identity website description website_ok :
  validate_basic (MProvRegister from name identity website description website_ok) = true ->
  ta_valid RAcc from = true /\ slen name <> 0 /\ (slen name <=? 64) = true /\ (slen identity <=? 64) = true /\
  (slen website <=? 64) = true /\ is_empty website || website_ok = true /\ (slen description <=? 256) = true.
Proof. simpl. unfold is_empty at 1. rewrite !andb_true_iff, negb_true_iff, Z.eqb_neq. tauto. Qed.

Lemma vb_prov_update from name identity website description website_ok st :
  validate_basic (MProvUpdate from name identity website description website_ok st) = true ->
  ta_valid RProv from = true /\ (slen name <=? 64) = true /\ (slen identity <=? 64) = true /\ (slen website <=? 64) = true /\
  is_empty website || website_ok = true /\ (slen description <=? 256) = true /\ (st = SUnspec \/ st = SActive \/ st = SInactive).
Proof. simpl. rewrite !andb_true_iff, bool_decide_eq_true. tauto. Qed.

Lemma vb_node_update_details from gb hr url url_ok :
  validate_basic (MNodeUpdateDetails from gb hr url url_ok) = true ->
  ta_valid RNode from = true /\ coins_field_opt_ok gb = true /\ coins_field_opt_ok hr = true /\
  (slen url = 0 \/ (slen url <=? 64) = true /\ url_ok = true).
Proof. simpl. unfold is_empty. rewrite !andb_true_iff, orb_true_iff, andb_true_iff, Z.eqb_eq. tauto. Qed.

Lemma vb_plan_create from duration gigabytes prices :
  validate_basic (MPlanCreate from duration gigabytes prices) = true ->
  ta_valid RProv from = true /\ 0 < duration /\ 0 < gigabytes /\ coins_field_ok prices = true.
Proof. simpl. rewrite !andb_true_iff, !Z.ltb_lt. tauto. Qed.

Lemma vb_plan_update_status from id st :
  validate_basic (MPlanUpdateStatus from id st) = true -> ta_valid RProv from = true /\ id <> 0 /\ (st = SActive \/ st = SInactive).
Proof. simpl. rewrite !andb_true_iff, negb_true_iff, Z.eqb_neq, bool_decide_eq_true. tauto. Qed.
