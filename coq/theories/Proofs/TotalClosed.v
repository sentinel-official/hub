(* C03: the no-halt theorem.  The combined invariant [hook_inv] is inductive over every operation,
   holds at genesis, and implies that neither block hook can panic (Total.v) -- so no well-formed
   history ever halts. *)
From Hub Require Import Base.Prelude Base.Arith Model.Types Model.Keeper Model.Handlers Model.Hooks Model.Step.
From Hub Require Import Proofs.Tactics Proofs.Sorting Proofs.Frames Proofs.Money Proofs.KeysInv Proofs.ArithThm Proofs.Quota Proofs.Pricing
  Proofs.IndexSess Proofs.IndexNode Proofs.InvDefs Proofs.IndexSub Proofs.Listing Proofs.IndexSub2 Proofs.IndexPlan Proofs.IndexAll Proofs.Link
  Proofs.Ledger1 Proofs.Ledger2 Proofs.Ledger3 Proofs.LedgerClosed Proofs.RangeDefs Proofs.Range Proofs.Total Proofs.Effects.

(** * [range_inv] over one operation *)

Lemma range_step s o s' : kinv s -> quota_inv s -> range_inv s -> wf_op_c03 s o -> step s o = OOk s' -> range_inv s'.
Proof.
  intros Hi Hq Hr (_ & W2 & W3) H. apply step_inv in H. pose proof (range_clear _ Hr) as Hr0. destruct o.
  - apply begin_block_effect in H as (s1 & Hm & H).
    assert (Hr1 : range_inv s1) by (eapply range_mint_begin_block; [|exact Hm]; eapply range_frame; [..|exact Hr]; reflexivity).
    eapply (rfold_inv range_inv); [|exact Hr1|exact H]. intros a e b Ha Hs. eapply range_payout_step; eauto.
  - destruct H as [Hv H]. eapply range_handle; [apply kinv_clear; exact Hi| |exact Hr0|exact Hv|exact W2|exact W3|exact H].
    eapply (quota_inv_frame s); [..|exact Hq]; reflexivity.
  - destruct H as [_ ->]. apply (fold_left_inv range_inv); [|exact Hr0].
    intros x c Hx. apply (range_inv_keeps _ _ _ (apply_pchange_keeps x c) Hx); discriminate.
  - destruct H as (se & H & ->). apply end_block_effect in H as (s1 & s2 & H1 & H2 & H3).
    assert (Hi0 : kinv (clear_events s)) by (apply kinv_clear; exact Hi).
    assert (G2 : kinv s2 /\ range_inv s2).
    { eapply (rfold_inv (fun y => kinv y /\ range_inv y)); [| |exact H2].
      - intros a e b [Ha Hra] Hs. split; [eapply kinv_session_expire_one|eapply range_session_expire_one]; eauto.
      - split; [exact (kinv_node_end_block _ _ Hi0 H1)|exact (range_node_end_block _ _ Hi0 Hr0 H1)]. }
    assert (G3 : kinv se /\ range_inv se).
    { eapply (rfold_inv (fun y => kinv y /\ range_inv y)); [|exact G2|exact H3].
      intros a e b [Ha Hra] Hs. split; [eapply kinv_sub_expire_one|eapply range_sub_expire_one]; eauto. }
    eapply (range_frame se); [..|apply G3]; reflexivity.
Qed.

(** * [hook_inv] is inductive *)

Theorem hook_inv_step s o s' : hook_inv s -> wf_op_c03 s o -> step s o = OOk s' -> hook_inv s'.
Proof.
  intros [Hl Hq Hg Hm Hr] Hwf H. pose proof Hwf as (W1 & W2 & W3).
  pose proof (ai_k _ (lf_idx _ Hl)) as Hi. pose proof (ai_sub _ (lf_idx _ Hl)) as Hix. split.
  - eapply life_step; eauto.
  - eapply quota_step; eauto.
  - eapply ledger_step_closed; eauto.
  - eapply money_inv_step; eauto.
  - eapply range_step; eauto.
Qed.

Theorem hook_inv_init g : wf_genesis_c03 g -> hook_inv (init g).
Proof.
  intros (Hg & Hp & Hinf). split.
  - apply life_init. exact Hp.
  - apply quota_inv_init.
  - apply ledger_init.
  - apply money_inv_init. exact Hg.
  - apply range_init. exact Hinf.
Qed.

(** * no history halts *)

Lemma step_never_halts s o : hook_inv s -> wf_op_c03 s o -> step s o <> OHalt.
Proof.
  intros Hh (W1 & _ & _). unfold step. destruct o.
  - simpl in W1. destruct (begin_block_total s t Hh W1) as (s' & -> & _). discriminate.
  - destruct (run_tx _ m); discriminate.
  - destruct (forallb pchange_valid _); discriminate.
  - destruct (end_block_total s Hh) as (s' & -> & _). discriminate.
Qed.

Theorem run_never_halts ops : forall s i,
  hook_inv s -> wf_hist wf_op_c03 s ops -> exists s', run_from s ops i = RunOk s' /\ hook_inv s'.
Proof.
  induction ops as [|o ops IH]; simpl; intros s i Hh Hwf; [eauto|].
  destruct Hwf as [Hw1 Hw2]. pose proof (step_never_halts s o Hh Hw1) as Hnh.
  destruct (step s o) as [s1| |] eqn:E; [| |congruence].
  - apply IH; [eapply hook_inv_step; eauto|exact Hw2].
  - apply IH; [apply hook_inv_clear; exact Hh|exact Hw2].
Qed.

(* from any genesis of the configuration domain, no well-formed history halts the chain *)
Theorem chain_never_halts g ops :
  wf_genesis_c03 g -> wf_hist wf_op_c03 (init g) ops -> exists s', run (init g) ops = RunOk s' /\ hook_inv s'.
Proof. intros Hg Hwf. apply run_never_halts; [apply hook_inv_init; exact Hg|exact Hwf]. Qed.

(** * a boolean check of the premises, for concrete histories (non-vacuity examples, correspondence) *)

Lemma bal_small_sound s a : bal_small_b s a = true -> forall d, bal s a d < BIG.
Proof.
  intros H d. apply bool_decide_eq_true in H. unfold bal, amount_of.
  destruct (default ∅ (bank s !! a) !! d) as [v|] eqn:E; simpl; [exact (H _ _ E)|apply BIG_pos].
Qed.

Lemma par_ok_b_sound p : par_ok_b p = true -> par_ok p.
Proof.
  unfold par_ok_b. rewrite !andb_true_iff. intros [[[[[[[A B] C] D] E] F] G] H].
  apply Z.ltb_lt in A, B, D. apply Z.leb_le in C, E, F, G, H. split; lia.
Qed.

Lemma msg_sender_from m : msg_sender m = msg_from m.
Proof. destruct m; reflexivity. Qed.

Lemma wf_op_c03_b_sound s o : wf_op_c03_b s o = true -> wf_op_c03 s o.
Proof.
  unfold wf_op_c03, wf_op_c03_b, wf_op_life, wf_op. destruct o; intros H; rewrite ?msg_sender_from in H.
  - apply Z.ltb_lt in H. auto.
  - apply andb_true_iff in H as [H1 H2]. apply bool_decide_eq_true in H1. split; [exact I|]. split; [exact H1|]. apply bal_small_sound. exact H2.
  - split; [|auto]. intros Hgate. rewrite Hgate in H. simpl in H.
    apply andb_true_iff in H as [H1 H2]. apply bool_decide_eq_true in H2. apply Z.leb_le in H1. split; [exact H1|].
    intros sid x Hx. exact (H2 _ _ Hx).
  - auto.
Qed.

Fixpoint wf_hist_b (s : state) (ops : list op) : bool :=
  match ops with
  | [] => true
  | o :: r => wf_op_c03_b s o && match step s o with OOk s' => wf_hist_b s' r | ORejected => wf_hist_b (clear_events s) r | OHalt => true end
  end.
Lemma wf_hist_b_sound ops : forall s, wf_hist_b s ops = true -> wf_hist wf_op_c03 s ops.
Proof.
  induction ops as [|o r IH]; simpl; intros s H; [exact I|].
  apply andb_true_iff in H as [H1 H2]. split; [apply wf_op_c03_b_sound; exact H1|].
  destruct (step s o); auto.
Qed.
