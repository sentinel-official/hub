(* C11: node prices stay within the governance bounds.  At every point of a block,
   for each of the four bound vectors, either the vector was modified in this block
   (the end-blocker will sweep) or every node is within it; the end-blocker's sweep
   clamps every node, so at every block boundary all nodes are within all bounds. *)
From Hub Require Import Base.Prelude Base.Arith Model.Types Model.Keeper Model.Handlers Model.Hooks Model.Step.
From Hub Require Import Proofs.Tactics Proofs.Effects Proofs.Sorting Proofs.Frames Proofs.Money Proofs.KeysInv.

Definition within_max (prices bound : coins) : Prop := forall d a, bound !! d = Some a -> amount_of prices d <= a.
Definition within_min (prices bound : coins) : Prop := forall d a, bound !! d = Some a -> a <= amount_of prices d.

Lemma elem_of_coins_list (c : coins) d a : (d, a) ∈ coins_list c <-> c !! d = Some a.
Proof. unfold coins_list. rewrite elem_of_sort_by, elem_of_map_to_list. reflexivity. Qed.

Lemma NoDup_coins_list_fst (c : coins) : NoDup (map fst (coins_list c)).
Proof.
  unfold coins_list.
  assert (Hp : map fst (sort_by (fun x y : denom * Z => N.compare x.1 y.1) (map_to_list c)) ≡ₚ map fst (map_to_list c))
    by (apply (fmap_Permutation fst), sort_by_perm).
  rewrite Hp. apply NoDup_fst_map_to_list.
Qed.

Lemma bounds_ok_spec p mx mn : bounds_ok p mx mn = true <-> within_max p mx /\ within_min p mn.
Proof.
  unfold bounds_ok. rewrite andb_true_iff, !forallb_forall. unfold within_max, within_min. split.
  - intros [H1 H2]. split; intros d a Hd.
    + specialize (H1 (d, a)). rewrite <- elem_of_list_In, elem_of_coins_list in H1. specialize (H1 Hd). simpl in H1.
      apply negb_true_iff, Z.ltb_ge in H1. exact H1.
    + specialize (H2 (d, a)). rewrite <- elem_of_list_In, elem_of_coins_list in H2. specialize (H2 Hd). simpl in H2.
      apply negb_true_iff, Z.ltb_ge in H2. exact H2.
  - intros [H1 H2]. split; intros [d a] Hin; rewrite <- elem_of_list_In, elem_of_coins_list in Hin; simpl;
      apply negb_true_iff, Z.ltb_ge; eauto.
Qed.

(** * clamping *)

(* one pass over a bound list, replacing an amount by the bound's where the test [t bound amount] says so: the
   amount of [d] ends as [m amount bound] for the bound of [d], if there is one *)
Lemma clamp_amount (t : Z -> Z -> bool) (m : Z -> Z -> Z) l :
  (forall x a, (if t a x then a else x) = m x a) -> forall p d,
  NoDup (map fst l) ->
  amount_of (fold_left (fun p '(d, a) => if t a (amount_of p d) then coins_set p d a else p) l p) d =
  match list_find (fun x => x.1 = d) l with
  | Some (_, (_, a)) => m (amount_of p d) a
  | None => amount_of p d
  end.
Proof.
  intros Hm. induction l as [|[d0 a0] l IH]; intros p d Hnd; [reflexivity|].
  apply NoDup_cons in Hnd as [Hn0 Hnd]. cbn [fold_left]. rewrite IH by exact Hnd.
  cbn [list_find]. destruct (decide ((d0, a0).1 = d)) as [E|E]; simpl in E.
  - subst d0. simpl.
    assert (Hnf : list_find (fun x : denom * Z => x.1 = d) l = None).
    { apply list_find_None. apply Forall_forall. intros [d1 a1] Hin E1. simpl in E1. subst d1.
      apply Hn0. apply elem_of_list_fmap. exists (d, a1). auto. }
    rewrite Hnf, <- Hm. destruct (t a0 (amount_of p d)); [|reflexivity].
    rewrite amount_of_coins_set. rewrite bool_decide_eq_true_2 by reflexivity. reflexivity.
  - simpl. assert (Ea : amount_of (if t a0 (amount_of p d0) then coins_set p d0 a0 else p) d = amount_of p d).
    { destruct (t a0 (amount_of p d0)); [|reflexivity]. rewrite amount_of_coins_set, bool_decide_eq_false_2 by exact E. reflexivity. }
    rewrite Ea. destruct (list_find (fun x : denom * Z => x.1 = d) l) as [[i [d1 a1]]|]; reflexivity.
Qed.

Lemma clamp_max_amount l : forall p d,
  NoDup (map fst l) ->
  amount_of (fold_left (fun p '(d, a) => if a <? amount_of p d then coins_set p d a else p) l p) d =
  match list_find (fun x => x.1 = d) l with
  | Some (_, (_, a)) => Z.min (amount_of p d) a
  | None => amount_of p d
  end.
Proof. apply (clamp_amount (fun a x => a <? x) Z.min). intros x a. destruct (Z.ltb_spec a x); lia. Qed.

Lemma clamp_min_amount l : forall p d,
  NoDup (map fst l) ->
  amount_of (fold_left (fun p '(d, a) => if amount_of p d <? a then coins_set p d a else p) l p) d =
  match list_find (fun x => x.1 = d) l with
  | Some (_, (_, a)) => Z.max (amount_of p d) a
  | None => amount_of p d
  end.
Proof. apply (clamp_amount (fun a x => x <? a) Z.max). intros x a. destruct (Z.ltb_spec x a); lia. Qed.

Lemma list_find_coins_list (c : coins) d :
  match list_find (fun x : denom * Z => x.1 = d) (coins_list c) with
  | Some (_, (_, a)) => c !! d = Some a
  | None => c !! d = None
  end.
Proof.
  destruct (list_find _ _) as [[i [d1 a1]]|] eqn:Ef.
  - apply list_find_Some in Ef as (Hl & E & _). simpl in E. subst d1.
    apply elem_of_coins_list. eapply elem_of_list_lookup_2; eauto.
  - apply list_find_None in Ef. rewrite Forall_forall in Ef.
    destruct (c !! d) as [a|] eqn:E; [|reflexivity]. exfalso. apply (Ef (d, a)); [|reflexivity].
    apply elem_of_coins_list. exact E.
Qed.

Lemma amount_of_clamp_max p b d :
  amount_of (clamp_max p b) d = match b !! d with Some a => Z.min (amount_of p d) a | None => amount_of p d end.
Proof.
  unfold clamp_max. rewrite clamp_max_amount by apply NoDup_coins_list_fst.
  pose proof (list_find_coins_list b d) as H. destruct (list_find _ _) as [[i [d1 a1]]|]; rewrite H; reflexivity.
Qed.
Lemma amount_of_clamp_min p b d :
  amount_of (clamp_min p b) d = match b !! d with Some a => Z.max (amount_of p d) a | None => amount_of p d end.
Proof.
  unfold clamp_min. rewrite clamp_min_amount by apply NoDup_coins_list_fst.
  pose proof (list_find_coins_list b d) as H. destruct (list_find _ _) as [[i [d1 a1]]|]; rewrite H; reflexivity.
Qed.

(* minimum and maximum agree where both bound a denomination (DESIGN section 5.1) *)
Definition bounds_consistent (mx mn : coins) : Prop := forall d a b, mn !! d = Some a -> mx !! d = Some b -> a <= b.

(* the price vector after the sweep of one node *)
Definition swept (fmax fmin : bool) (p mx mn : coins) : coins :=
  let p1 := if fmax then clamp_max p mx else p in
  if fmin then clamp_min p1 mn else p1.

Lemma swept_within fmax fmin p mx mn :
  bounds_consistent mx mn ->
  (fmax = true \/ within_max p mx) -> (fmin = true \/ within_min p mn) ->
  within_max (swept fmax fmin p mx mn) mx /\ within_min (swept fmax fmin p mx mn) mn.
Proof.
  intros Hc Hmax Hmin. unfold swept, within_max, within_min.
  split; intros d a Hd.
  - destruct fmin.
    + rewrite amount_of_clamp_min. destruct fmax.
      * rewrite amount_of_clamp_max, Hd. destruct (mn !! d) as [b|] eqn:Eb; [specialize (Hc _ _ _ Eb Hd)|]; lia.
      * destruct Hmax as [?|Hmax]; [discriminate|]. specialize (Hmax _ _ Hd).
        destruct (mn !! d) as [b|] eqn:Eb; [specialize (Hc _ _ _ Eb Hd)|]; lia.
    + destruct fmax.
      * rewrite amount_of_clamp_max, Hd. lia.
      * destruct Hmax as [?|Hmax]; [discriminate|]. exact (Hmax _ _ Hd).
  - destruct fmin.
    + rewrite amount_of_clamp_min, Hd. lia.
    + destruct Hmin as [?|Hmin]; [discriminate|]. specialize (Hmin _ _ Hd). destruct fmax.
      * rewrite amount_of_clamp_max. destruct (mx !! d) as [b|] eqn:Eb; [specialize (Hc _ _ _ Hd Eb)|]; lia.
      * exact Hmin.
Qed.

(** * the invariant *)

Definition node_of (s : state) (n : node) : Prop :=
  exists a, node_act s !! a = Some n \/ node_inact s !! a = Some n.

Record bounds_inv (s : state) : Prop := {
  b_max_gb : m_max_gb (modified s) = true \/ forall n, node_of s n -> within_max (nd_gb_prices n) (p_max_gb (pars s));
  b_min_gb : m_min_gb (modified s) = true \/ forall n, node_of s n -> within_min (nd_gb_prices n) (p_min_gb (pars s));
  b_max_hr : m_max_hr (modified s) = true \/ forall n, node_of s n -> within_max (nd_hr_prices n) (p_max_hr (pars s));
  b_min_hr : m_min_hr (modified s) = true \/ forall n, node_of s n -> within_min (nd_hr_prices n) (p_min_hr (pars s)) }.

(* all nodes within all four bounds *)
Definition all_within (s : state) : Prop :=
  forall n, node_of s n ->
    within_max (nd_gb_prices n) (p_max_gb (pars s)) /\ within_min (nd_gb_prices n) (p_min_gb (pars s)) /\
    within_max (nd_hr_prices n) (p_max_hr (pars s)) /\ within_min (nd_hr_prices n) (p_min_hr (pars s)).

Lemma all_within_bounds_inv s : all_within s -> bounds_inv s.
Proof. intros H. split; right; intros n Hn; apply (H n Hn). Qed.

Lemma bounds_inv_no_flags s : bounds_inv s -> modified s = no_flags -> all_within s.
Proof.
  intros [A B C D] E n Hn. rewrite E in *. simpl in *.
  destruct A as [?|A]; [discriminate|]. destruct B as [?|B]; [discriminate|].
  destruct C as [?|C]; [discriminate|]. destruct D as [?|D]; [discriminate|]. auto.
Qed.

(* a step that leaves nodes and parameters alone *)
Lemma bounds_inv_frame s s' :
  node_act s' = node_act s -> node_inact s' = node_inact s -> pars s' = pars s -> modified s' = modified s ->
  bounds_inv s -> bounds_inv s'.
Proof.
  intros E1 E2 E3 E4 [A B C D]. unfold node_of in *.
  split; rewrite E3, E4; [destruct A as [?|W]|destruct B as [?|W]|destruct C as [?|W]|destruct D as [?|W]]; auto;
    right; intros n Hn; apply W; rewrite <- E1, <- E2; exact Hn.
Qed.

Lemma bounds_inv_keeps T s s' :
  keeps T s s' -> touched GNode T = false -> touched GPar T = false -> bounds_inv s -> bounds_inv s'.
Proof.
  intros K T1 T2. destruct (keeps_node _ _ _ K T1) as (Ea & Ei & _). destruct (keeps_par _ _ _ K T2) as (Ep & Em).
  apply bounds_inv_frame; assumption.
Qed.

(* every node of [s'] has, for each price kind, either the prices of some node of [s] or validated prices *)
Lemma bounds_inv_nodes s s' :
  pars s' = pars s -> modified s' = modified s ->
  (forall n', node_of s' n' ->
     ((exists n, node_of s n /\ nd_gb_prices n' = nd_gb_prices n) \/
      (within_max (nd_gb_prices n') (p_max_gb (pars s)) /\ within_min (nd_gb_prices n') (p_min_gb (pars s)))) /\
     ((exists n, node_of s n /\ nd_hr_prices n' = nd_hr_prices n) \/
      (within_max (nd_hr_prices n') (p_max_hr (pars s)) /\ within_min (nd_hr_prices n') (p_min_hr (pars s))))) ->
  bounds_inv s -> bounds_inv s'.
Proof.
  intros E3 E4 Hn [A B C D].
  split; rewrite E3, E4; [destruct A as [?|W]|destruct B as [?|W]|destruct C as [?|W]|destruct D as [?|W]]; auto;
    right; intros n' Hn'; destruct (Hn n' Hn') as [[(n & Hin & G1)|(W1 & W2)] [(m & Hin2 & G2)|(W3 & W4)]]; auto;
    rewrite ?G1, ?G2; apply W; assumption.
Qed.

Lemma node_of_set_node s n s' n' : set_node s n = Ok s' -> node_of s' n' -> n' = n \/ node_of s n'.
Proof.
  unfold set_node, node_of. destruct (nd_status n); try discriminate; intros [= <-] [a [H|H]]; simpl in H.
  - apply lookup_insert_Some in H as [[_ ->]|[_ H]]; eauto.
  - eauto.
  - eauto.
  - apply lookup_insert_Some in H as [[_ ->]|[_ H]]; eauto.
Qed.

Lemma node_of_get_node s a n : get_node s a = Some n -> node_of s n.
Proof. intros H. apply get_node_cases in H as [H|[_ H]]; exists a; auto. Qed.

Lemma node_of_sub s s' :
  (forall a n, node_act s' !! a = Some n -> node_act s !! a = Some n) ->
  (forall a n, node_inact s' !! a = Some n -> node_inact s !! a = Some n) ->
  forall n, node_of s' n -> node_of s n.
Proof. intros H1 H2 n [a [H|H]]; exists a; auto. Qed.

Lemma bounds_h_node_register s from gb hr url s' : bounds_inv s -> h_node_register s from gb hr url = Ok s' -> bounds_inv s'.
Proof.
  intros Hb H. destruct (h_node_register_effect _ _ _ _ _ _ H) as (s1 & Hg & Hh & _ & Hf & ->).
  pose proof (fund_pool_keeps _ _ _ _ Hf) as K.
  destruct (keeps_node _ _ _ K eq_refl) as (E1 & E2 & _). destruct (keeps_par _ _ _ K eq_refl) as (E3 & E4).
  apply (bounds_inv_nodes s); [exact E3|exact E4| |exact Hb].
  intros n' [a Hn']. cbn [node_register_state node_act node_inact emit set] in Hn'. rewrite E1, E2 in Hn'.
  assert (G : n' = new_node s from gb hr url \/ node_of s n').
  { destruct Hn' as [Hn'|Hn']; [|apply lookup_insert_Some in Hn' as [[_ <-]|[_ Hn']]]; first [left; reflexivity|right; exists a; auto]. }
  destruct G as [->|G]; [apply bounds_ok_spec in Hg, Hh; split; right; assumption|split; left; exists n'; auto].
Qed.

Lemma bounds_h_node_update_details s from gb hr url s' : bounds_inv s -> h_node_update_details s from gb hr url = Ok s' -> bounds_inv s'.
Proof.
  intros Hb H. unfold h_node_update_details in H.
  apply rbind_ok in H as (u1 & Hg & H). apply ensure_ok in Hg. apply rbind_ok in H as (u2 & Hh & H). apply ensure_ok in Hh.
  destruct (get_node s (ta_bytes from)) as [n|] eqn:Hn; [|discriminate].
  apply rbind_ok in H as (s1 & Hset & H). injection H as <-.
  pose proof (set_node_keeps _ _ _ Hset) as Hk.
  apply (bounds_inv_nodes s); [exact (proj1 (keeps_par _ _ _ Hk eq_refl))|exact (proj2 (keeps_par _ _ _ Hk eq_refl))| |exact Hb].
  intros n' Hn'. change (node_of s1 n') in Hn'.
  apply (node_of_set_node _ _ _ _ Hset) in Hn' as [->|Hn']; [|split; left; exists n'; auto].
  pose proof (node_of_get_node _ _ _ Hn) as Hin. simpl. split.
  - destruct gb as [l|]; [right; apply bounds_ok_spec in Hg; exact Hg|left; exists n; auto].
  - destruct hr as [l|]; [right; apply bounds_ok_spec in Hh; exact Hh|left; exists n; auto].
Qed.

Lemma bounds_h_node_update_status s from st s' : bounds_inv s -> h_node_update_status s from st = Ok s' -> bounds_inv s'.
Proof.
  intros Hb H. destruct (h_node_update_status_effect _ _ _ _ H) as (n & Hn & _ & ->).
  pose proof (node_of_get_node _ _ _ Hn) as Hin.
  apply (bounds_inv_nodes s); [reflexivity|reflexivity| |exact Hb].
  intros n' [a Hn']. cbn [node_status_state node_act node_inact emit set] in Hn'.
  assert (G : n' = node_with_status s n st \/ node_of s n').
  { destruct Hn' as [Hn'|Hn']; repeat case_bool_decide;
      try (apply lookup_insert_Some in Hn' as [[_ <-]|[_ Hn']]); try (apply lookup_delete_Some in Hn' as [_ Hn']);
      first [left; reflexivity|right; exists a; auto]. }
  destruct G as [->|G]; [split; left; exists n; (split; [exact Hin|reflexivity])|split; left; exists n'; auto].
Qed.

(** * the end-blocker *)

Definition node_within (p : params) (n : node) : Prop :=
  within_max (nd_gb_prices n) (p_max_gb p) /\ within_min (nd_gb_prices n) (p_min_gb p) /\
  within_max (nd_hr_prices n) (p_max_hr p) /\ within_min (nd_hr_prices n) (p_min_hr p).

Definition params_consistent (p : params) : Prop :=
  bounds_consistent (p_max_gb p) (p_min_gb p) /\ bounds_consistent (p_max_hr p) (p_min_hr p).

Lemma node_of_all_nodes s n : node_of s n -> n ∈ all_nodes s.
Proof.
  intros [a [H|H]]; unfold all_nodes; apply elem_of_app; [left|right];
    apply elem_of_list_fmap; exists (a, n); (split; [reflexivity|]); apply elem_of_sort_by, elem_of_map_to_list; exact H.
Qed.

Lemma sweep_all_within s s1 :
  kinv_node s -> bounds_inv s -> params_consistent (pars s) ->
  rfold node_sweep_one (all_nodes s) s = Ok s1 ->
  pars s1 = pars s /\ forall n, node_of s1 n -> node_within (pars s) n.
Proof.
  intros Hk Hb [Hc1 Hc2] H.
  set (P := fun (rest : list node) (x : state) =>
              pars x = pars s /\ modified x = modified s /\
              (kinv_node x /\ same_dom (node_act x) (node_act s) /\ same_dom (node_inact x) (node_inact s)) /\
              (forall n, n ∈ rest -> n ∈ all_nodes s) /\
              (forall m, node_of x m -> node_within (pars s) m \/ m ∈ rest)).
  assert (HP : P [] s1).
  { eapply (rfold_rest P); [| |exact H].
    - intros n rest x x' (E1 & E2 & J & Hin & Hall) Hstep.
      assert (Hn0 : n ∈ all_nodes s) by (apply Hin; left).
      pose proof (kinv_node_sweep_one s x n x' Hk Hn0 J Hstep) as J'.
      unfold node_sweep_one in Hstep. apply rbind_ok in Hstep as (x1 & Hset & Hstep). injection Hstep as <-. apply must_ok in Hset.
      pose proof (set_node_keeps _ _ _ Hset) as Hkp.
      destruct (keeps_par _ _ _ Hkp eq_refl) as (Kp & Km). split; [simpl; congruence|]. split; [simpl; congruence|]. split; [exact J'|].
      split; [intros m Hm; apply Hin; right; exact Hm|].
      intros m Hm. change (node_of x1 m) in Hm.
      destruct J as (Jk & Ja & Ji).
      assert (Hof : node_of s n).
      { destruct (elem_of_all_nodes _ _ Hk Hn0) as [[? _]|[? _]]; eexists; eauto. }
      assert (Hnew : forall n', nd_gb_prices n' = swept (m_max_gb (modified s)) (m_min_gb (modified s)) (nd_gb_prices n) (p_max_gb (pars s)) (p_min_gb (pars s)) ->
                                nd_hr_prices n' = swept (m_max_hr (modified s)) (m_min_hr (modified s)) (nd_hr_prices n) (p_max_hr (pars s)) (p_min_hr (pars s)) ->
                                node_within (pars s) n').
      { intros n' G1 G2. destruct Hb as [A B C D]. unfold node_within. rewrite G1, G2.
        destruct (swept_within (m_max_gb (modified s)) (m_min_gb (modified s)) (nd_gb_prices n) (p_max_gb (pars s)) (p_min_gb (pars s)) Hc1) as [W1 W2].
        { destruct A as [?|A]; auto. }
        { destruct B as [?|B]; auto. }
        destruct (swept_within (m_max_hr (modified s)) (m_min_hr (modified s)) (nd_hr_prices n) (p_max_hr (pars s)) (p_min_hr (pars s)) Hc2) as [W3 W4].
        { destruct C as [?|C]; auto. }
        { destruct D as [?|D]; auto. }
        auto. }
      (* which entries of the new state are old ones *)
      assert (Hold : node_within (pars s) m \/ (node_of x m /\ nd_addr m <> nd_addr n)).
      { unfold set_node in Hset. simpl in Hset.
        destruct (elem_of_all_nodes _ _ Hk Hn0) as [[Hs0 Hst]|[Hs0 Hst]]; rewrite Hst in Hset; injection Hset as <-;
          destruct Hm as [a [Ha|Ha]]; simpl in Ha.
        - apply lookup_insert_Some in Ha as [[_ <-]|[Hne Ha]].
          + left. apply Hnew; simpl; rewrite E1, E2; reflexivity.
          + right. split; [exists a; auto|]. rewrite (proj1 (k_na _ Jk _ _ Ha)). congruence.
        - right. split; [exists a; auto|]. rewrite (proj1 (k_ni _ Jk _ _ Ha)). intros Heq. rewrite Heq in Ha.
          assert (Hin1 : is_Some (node_act x !! nd_addr n)) by (apply Ja; eauto).
          destruct Hin1 as [y Hy]. rewrite (k_nd _ Jk _ _ Hy) in Ha. discriminate.
        - right. split; [exists a; auto|]. rewrite (proj1 (k_na _ Jk _ _ Ha)). intros Heq. rewrite Heq in Ha.
          assert (Hin1 : is_Some (node_inact x !! nd_addr n)) by (apply Ji; eauto).
          destruct Hin1 as [y Hy]. rewrite (k_nd _ Jk _ _ Ha) in Hy. discriminate.
        - apply lookup_insert_Some in Ha as [[_ <-]|[Hne Ha]].
          + left. apply Hnew; simpl; rewrite E1, E2; reflexivity.
          + right. split; [exists a; auto|]. rewrite (proj1 (k_ni _ Jk _ _ Ha)). congruence. }
      destruct Hold as [?|[Hx Hne]]; [auto|].
      destruct (Hall m Hx) as [?|Hr]; [auto|]. apply elem_of_cons in Hr as [->|Hr]; [congruence|auto].
    - split; [reflexivity|]. split; [reflexivity|]. split; [split; [exact Hk|split; intros k; reflexivity]|].
      split; [auto|]. intros m Hm. right. apply node_of_all_nodes. exact Hm. }
  destruct HP as (E1 & _ & _ & _ & Hall). split; [exact E1|].
  intros n Hn. destruct (Hall n Hn) as [?|Hr]; [assumption|inversion Hr].
Qed.

Lemma within_node_expire_one s e s' p :
  (forall n, node_of s n -> node_within p n) -> node_expire_one s e = Ok s' ->
  (forall n, node_of s' n -> node_within p n) /\ pars s' = pars s.
Proof.
  intros Hall H. unfold node_expire_one in H. destruct (get_node s e.2) as [n|] eqn:Hg; [|discriminate].
  apply rbind_ok in H as (s2 & Hset & H). injection H as <-. apply must_ok in Hset.
  pose proof (set_node_keeps _ _ _ Hset) as Hk. split; [|exact (proj1 (keeps_par _ _ _ Hk eq_refl))].
  intros m Hm. change (node_of s2 m) in Hm. apply (node_of_set_node _ _ _ _ Hset) in Hm as [->|Hm].
  - pose proof (Hall n (node_of_get_node _ _ _ Hg)) as W. exact W.
  - apply Hall. revert Hm. apply node_of_sub; simpl; intros a x Hx; [apply lookup_delete_Some in Hx as [_ Hx]|]; exact Hx.
Qed.

Lemma bounds_node_end_block s s' :
  kinv_node s -> bounds_inv s -> params_consistent (pars s) -> node_end_block s = Ok s' ->
  (m_max_gb (modified s) || m_min_gb (modified s) || m_max_hr (modified s) || m_min_hr (modified s) = false \/
   forall n, node_of s' n -> node_within (pars s) n) /\ pars s' = pars s /\ modified s' = modified s /\
  (m_max_gb (modified s) || m_min_gb (modified s) || m_max_hr (modified s) || m_min_hr (modified s) = false -> bounds_inv s').
Proof.
  intros Hk Hb Hc H. pose proof (node_end_block_keeps _ _ H) as Hkp.
  destruct (keeps_par _ _ _ Hkp eq_refl) as (Ep & Em).
  unfold node_end_block in H. apply rbind_ok in H as (s1 & Hsw & H).
  destruct (m_max_gb (modified s) || m_min_gb (modified s) || m_max_hr (modified s) || m_min_hr (modified s)) eqn:Ef.
  - destruct (sweep_all_within _ _ Hk Hb Hc Hsw) as [E1 Hall].
    assert (G : (forall n, node_of s' n -> node_within (pars s) n) /\ pars s' = pars s1).
    { eapply (rfold_inv (fun x => (forall n, node_of x n -> node_within (pars s) n) /\ pars x = pars s1)); [|split; [exact Hall|reflexivity]|exact H].
      intros x e x' [Hx Hp] Hstep. destruct (within_node_expire_one _ _ _ _ Hx Hstep) as [A B]. split; [exact A|congruence]. }
    split; [right; apply G|]. split; [exact Ep|]. split; [exact Em|]. discriminate.
  - injection Hsw as <-. split; [left; reflexivity|]. split; [exact Ep|]. split; [exact Em|]. intros _.
    apply orb_false_iff in Ef as [Ef E4]. apply orb_false_iff in Ef as [Ef E3]. apply orb_false_iff in Ef as [E1 E2].
    assert (Hall : forall n, node_of s n -> node_within (pars s) n).
    { destruct Hb as [A B C D]. rewrite E1 in A. rewrite E2 in B. rewrite E3 in C. rewrite E4 in D.
      destruct A as [?|A]; [discriminate|]. destruct B as [?|B]; [discriminate|].
      destruct C as [?|C]; [discriminate|]. destruct D as [?|D]; [discriminate|]. intros n Hn. unfold node_within. auto. }
    assert (G : (forall n, node_of s' n -> node_within (pars s) n) /\ pars s' = pars s).
    { eapply (rfold_inv (fun x => (forall n, node_of x n -> node_within (pars s) n) /\ pars x = pars s)); [|split; [exact Hall|reflexivity]|exact H].
      intros x e x' [Hx Hp] Hstep. destruct (within_node_expire_one _ _ _ _ Hx Hstep) as [A B]. split; [exact A|congruence]. }
    apply all_within_bounds_inv. intros n Hn. rewrite Ep. apply (proj1 G n Hn).
Qed.

Lemma bounds_apply_pchange s c : bounds_inv s -> bounds_inv (apply_pchange s c).
Proof.
  intros [A B C D]. destruct c; try (split; simpl; assumption).
  - split; simpl; auto.
  - split; simpl; auto.
  - split; simpl; auto.
  - split; simpl; auto.
Qed.

(* the parameter sets stay in the domain of DESIGN section 5.1 at the end of every block *)
Definition wf_op11 (s : state) (o : op) : Prop :=
  match o with OEnd => params_consistent (pars s) | _ => True end.

Theorem bounds_step s o s' :
  kinv s -> bounds_inv s -> wf_op11 s o -> step s o = OOk s' ->
  bounds_inv s' /\ (o = OEnd -> all_within s').
Proof.
  intros Hi Hb Hwf Hstep. apply step_inv in Hstep. destruct o.
  - rename Hstep into H. rename s' into x. split; [|discriminate].
    apply (bounds_inv_keeps _ _ _ (begin_block_keeps _ _ H) eq_refl eq_refl). eapply (bounds_inv_frame s); [..|exact Hb]; reflexivity.
  - destruct Hstep as [_ H]. rename s' into x. split; [|discriminate].
    assert (Hb0 : bounds_inv (clear_events s)) by (eapply (bounds_inv_frame s); [..|exact Hb]; reflexivity).
    destruct (touched GNode (msg_groups m)) eqn:Ht.
    2:{ eapply bounds_inv_keeps; [exact (handle_frame _ _ _ H)|exact Ht|destruct m; reflexivity|exact Hb0]. }
    destruct m; try discriminate Ht; simpl in H.
    + eapply bounds_h_node_register; eauto.
    + eapply bounds_h_node_update_details; eauto.
    + eapply bounds_h_node_update_status; eauto.
  - destruct Hstep as [_ ->]. split; [|discriminate]. apply fold_left_inv; [intros; apply bounds_apply_pchange; assumption|].
    eapply (bounds_inv_frame s); [..|exact Hb]; reflexivity.
  - destruct Hstep as (se & H & ->).
    apply end_block_effect in H as (s1 & s2 & H1 & H2 & H3).
    assert (Hk0 : kinv_node (clear_events s)) by (eapply kinv_node_frame; [..|apply (ki_node _ Hi)]; reflexivity).
    assert (Hb0 : bounds_inv (clear_events s)) by (eapply (bounds_inv_frame s); [..|exact Hb]; reflexivity).
    destruct (bounds_node_end_block _ _ Hk0 Hb0 Hwf H1) as (Hcase & Ep & Em & Hnf).
    apply session_end_block_keeps in H2. apply sub_end_block_keeps in H3.
    assert (Hall : all_within (se <| modified := no_flags |>)).
    { assert (Hall1 : forall n, node_of s1 n -> node_within (pars s) n).
      { destruct Hcase as [Ef|Hall1]; [|exact Hall1].
        specialize (Hnf Ef). intros n Hn.
        assert (Em1 : modified s1 = no_flags).
        { rewrite Em. simpl. apply orb_false_iff in Ef as [Ef E4]. apply orb_false_iff in Ef as [Ef E3]. apply orb_false_iff in Ef as [E1 E2].
          simpl in E1, E2, E3, E4. revert E1 E2 E3 E4. destruct (modified s) as [f1 f2 f3 f4]; simpl. intros -> -> -> ->. reflexivity. }
        pose proof (bounds_inv_no_flags _ Hnf Em1 n Hn) as W. rewrite Ep in W. exact W. }
      intros n Hn. assert (Hn1 : node_of s1 n).
      { destruct Hn as [a Ha]. exists a. simpl in Ha.
        replace (node_act s1) with (node_act se) by keeps_solve. replace (node_inact s1) with (node_inact se) by keeps_solve. exact Ha. }
      specialize (Hall1 n Hn1). simpl. replace (pars se) with (pars s) by (symmetry; keeps_solve). exact Hall1. }
    split; [apply all_within_bounds_inv; exact Hall|intros _; exact Hall].
Qed.

(* genesis: no node yet *)
Lemma bounds_inv_init g : bounds_inv (init g).
Proof.
  apply all_within_bounds_inv. intros n [a Ha]. exfalso.
  destruct (keeps_node _ _ _ (init_keeps g) eq_refl) as (E1 & E2 & _).
  rewrite E1, E2 in Ha. simpl in Ha. rewrite !lookup_empty in Ha. destruct Ha; discriminate.
Qed.

Fixpoint wf_ops11 (s : state) (ops : list op) : Prop :=
  match ops with
  | [] => True
  | o :: ops' =>
      wf_op11 s o /\
      match step s o with OOk s' => wf_ops11 s' ops' | ORejected => wf_ops11 (clear_events s) ops' | OHalt => True end
  end.

Theorem bounds_run ops : forall s i s',
  kinv s -> bounds_inv s -> wf_ops11 s ops -> run_from s ops i = RunOk s' -> bounds_inv s'.
Proof.
  induction ops as [|o ops IH]; simpl; intros s i s' Hi Hb Hwf H.
  - injection H as <-. exact Hb.
  - destruct Hwf as [Hw1 Hw2]. destruct (step s o) as [s1| |] eqn:E; try discriminate.
    + destruct (bounds_step _ _ _ Hi Hb Hw1 E) as [Hb1 _]. eapply IH; [eapply kinv_step; eauto|exact Hb1|exact Hw2|exact H].
    + eapply IH; [apply kinv_clear; exact Hi| |exact Hw2|exact H]. eapply (bounds_inv_frame s); [..|exact Hb]; reflexivity.
Qed.
