(* C05: buyers pay exactly the quoted price; every payment is split without loss.
   Exact effect of each payment path on all balances. *)
From Hub Require Import Base.Prelude Base.Arith Model.Types Model.Keeper Model.Handlers Model.Hooks Model.Step.
From Hub Require Import Proofs.Tactics Proofs.ArithThm Proofs.Effects Proofs.Frames Proofs.Money.

(* balance change of [x] in denomination [d'] when [amt] of [d] moves from [f] to [t] *)
Definition moved (f t : addr) (d : denom) (amt : Z) (x : addr) (d' : denom) : Z :=
  delta (bool_decide (t = x /\ d = d')) amt - delta (bool_decide (f = x /\ d = d')) amt.

Lemma transfer_bal s s' f t d amt r v :
  transfer s s' f t d amt r v -> forall x d', bal s' x d' = bal s x d' + moved f t d amt x d'.
Proof. exact (tr_bal s s' f t d amt r v). Qed.

Lemma bal_two_transfers s s1 s2 s' f t1 t2 d a1 a2 r1 v1 r2 v2 :
  transfer s s1 f t1 d a1 r1 v1 -> transfer s1 s2 f t2 d a2 r2 v2 -> bank s' = bank s2 ->
  forall x d', bal s' x d' = bal s x d' + moved f t1 d a1 x d' + moved f t2 d a2 x d'.
Proof.
  intros T1 T2 E x d'. unfold bal at 1. rewrite E. fold (bal s2 x d').
  rewrite (transfer_bal _ _ _ _ _ _ _ _ T2), (transfer_bal _ _ _ _ _ _ _ _ T1). reflexivity.
Qed.

(** * the split of a payment between payee and fee collector *)

(* fee = exactly (half-even) rounded share of the payment; payee gets the rest *)
Definition split_ok (payment share fee payee : Z) : Prop :=
  fee + payee = payment /\ 0 <= fee <= payment /\ fee = chop_round (payment * share) /\
  - HALF18 <= fee * P18 - payment * share <= HALF18.

(* whatever proportion computes is the exactly rounded share, within half a unit *)
Theorem fee_within_share pay share fee :
  0 <= pay <= 2 ^ 128 -> 0 <= share <= P18 -> proportion pay share = Ok fee -> split_ok pay share fee (pay - fee).
Proof.
  intros Hp Hs Hf. destruct (proportion_exact pay share Hp Hs) as (f & Hf' & E & B1 & B2).
  rewrite Hf in Hf'. injection Hf' as <-. unfold split_ok. repeat split; try lia; try exact E.
Qed.

(* [fee_within_share] again; the subtraction of the fee is not needed for it *)
Lemma split_of_proportion payment share fee r :
  0 <= payment <= 2 ^ 128 -> 0 <= share <= P18 ->
  proportion payment share = Ok fee -> coin_sub (r, payment) fee = Ok (r, payment - fee) ->
  split_ok payment share fee (payment - fee).
Proof. intros Hp Hs Hf _. exact (fee_within_share _ _ _ Hp Hs Hf). Qed.

(** * plan subscriptions *)

Theorem plan_subscribe_pays s acc pid dn s' id :
  create_sub_for_plan s acc pid dn = Ok (s', id) ->
  exists p price fee,
    get_plan s pid = Some p /\ pl_status p = SActive /\ pl_prices p !! dn = Some price /\
    proportion price (p_prov_share (pars s)) = Ok fee /\ 0 <= fee <= price /\
    forall x d', bal s' x d' = bal s x d' + moved acc (c_feecoll (cfg s)) dn fee x d' + moved acc (pl_prov p) dn (price - fee) x d'.
Proof.
  intros H.
  destruct (create_sub_for_plan_effect _ _ _ _ _ _ H)
    as (p & price & fee & s1 & s2 & Hp & Hact & Hpr & Hfee & Hge & _ & H1 & H2 & _ & _ & ->).
  pose proof (z_send_transfer _ _ _ _ _ acc H1) as T1. pose proof (z_send_transfer _ _ _ _ _ acc H2) as T2.
  exists p, price, fee. repeat (split; [assumption|]). split; [split; [exact (tr_amt _ _ _ _ _ _ _ _ T1)|lia]|].
  exact (bal_two_transfers _ _ _ _ _ _ _ _ _ _ _ _ _ _ T1 T2 eq_refl).
Qed.

(* a plan subscription costs exactly the plan's price; provider and fee collector get exactly the two parts *)
Corollary plan_subscribe_split s acc pid dn s' id p price :
  create_sub_for_plan s acc pid dn = Ok (s', id) -> get_plan s pid = Some p -> pl_prices p !! dn = Some price ->
  0 <= price <= 2 ^ 128 -> 0 <= p_prov_share (pars s) <= P18 ->
  exists fee, split_ok price (p_prov_share (pars s)) fee (price - fee) /\
    forall x d', bal s' x d' = bal s x d' + moved acc (c_feecoll (cfg s)) dn fee x d' + moved acc (pl_prov p) dn (price - fee) x d'.
Proof.
  intros H Hg Hp Hr Hs. destruct (plan_subscribe_pays _ _ _ _ _ _ H) as (p' & price' & fee & Hg' & _ & Hp' & Hfee & _ & Hb).
  rewrite Hg in Hg'. injection Hg' as <-. rewrite Hp in Hp'. injection Hp' as <-.
  exists fee. split; [exact (fee_within_share _ _ _ Hr Hs Hfee)|exact Hb].
Qed.

(** * pay-as-you-go subscriptions: the escrowed amount *)

Lemma afb_whole_gigabytes p g :
  0 <= p <= 2 ^ 128 -> 0 <= g -> GB * g <= 2 ^ 128 -> amount_for_bytes p (GB * g) = Ok (p * g).
Proof.
  intros Hp Hg Hb. assert (0 <= GB * g) by (pose proof GB_pos; nia). rewrite afb_exact by lia. f_equal.
  replace (p * (GB * g)) with (GB * (p * g)) by lia. apply cdiv_exact. apply GB_pos.
Qed.

(* per-gigabyte purchase: the escrow is the charge for GB*g bytes at the node's quoted price in that denomination;
   a denomination the node does not quote is rejected *)
Theorem node_subscribe_gigabytes s acc nd g dn s' id :
  g <> 0 -> create_sub_for_node s acc nd g 0 dn = Ok (s', id) ->
  exists n price b amount,
    get_node s nd = Some n /\ nd_status n = SActive /\ nd_gb_prices n !! dn = Some price /\
    int_mul GB g = Ok b /\ amount_for_bytes price b = Ok amount /\ 0 <= amount /\
    (forall x d', bal s' x d' = bal s x d' + moved acc (c_deposit (cfg s)) dn amount x d') /\
    exists sb, subs s' !! id = Some sb /\ sb_kind sb = KNode nd g 0 (dn, amount) /\ sb_addr sb = acc.
Proof.
  intros Hg H.
  destruct (create_sub_for_node_effect _ _ _ _ _ _ _ _ H) as (n & inact & dep & s1 & Hn & Hact & (Gg & _) & H1 & -> & ->).
  destruct (Gg Hg) as (price & a & Hp & Hb & Ha & Ha0 & Hd). destruct (Hd eq_refl) as [_ ->].
  exists n, price, (GB * g), a. do 3 (split; [assumption|]). split; [unfold int_mul, chk; rewrite Hb; reflexivity|].
  do 2 (split; [assumption|]). split.
  - exact (transfer_bal _ _ _ _ _ _ _ _ (transfer_frame _ _ _ _ _ _ _ _ _ _ eq_refl eq_refl eq_refl eq_refl (z_dep_add_transfer _ _ _ _ H1))).
  - eexists. split; [apply lookup_insert|]. split; reflexivity.
Qed.

(* per-hour purchase: the escrow is the node's quoted hourly price times the hours *)
Theorem node_subscribe_hours s acc nd h dn s' id :
  h <> 0 -> create_sub_for_node s acc nd 0 h dn = Ok (s', id) ->
  exists n price,
    get_node s nd = Some n /\ nd_status n = SActive /\ nd_hr_prices n !! dn = Some price /\ 0 <= price * h /\
    (forall x d', bal s' x d' = bal s x d' + moved acc (c_deposit (cfg s)) dn (price * h) x d') /\
    exists sb, subs s' !! id = Some sb /\ sb_kind sb = KNode nd 0 h (dn, price * h) /\ sb_addr sb = acc.
Proof.
  intros Hh H.
  destruct (create_sub_for_node_effect _ _ _ _ _ _ _ _ H) as (n & inact & dep & s1 & Hn & Hact & (_ & Gh & _) & H1 & -> & ->).
  destruct (Gh Hh) as (price & Hp & _ & Hd0 & _ & -> & _).
  exists n, price. do 4 (split; [assumption|]). split.
  - exact (transfer_bal _ _ _ _ _ _ _ _ (transfer_frame _ _ _ _ _ _ _ _ _ _ eq_refl eq_refl eq_refl eq_refl (z_dep_add_transfer _ _ _ _ H1))).
  - eexists. split; [apply lookup_insert|]. split; reflexivity.
Qed.

(* whole gigabytes at the quoted per-gigabyte price cost exactly price x gigabytes *)
Corollary node_subscribe_gigabyte_price s acc nd g dn s' id n price :
  create_sub_for_node s acc nd g 0 dn = Ok (s', id) -> g <> 0 -> 0 <= g -> GB * g <= 2 ^ 128 ->
  get_node s nd = Some n -> nd_gb_prices n !! dn = Some price -> 0 <= price <= 2 ^ 128 ->
  (forall x d', bal s' x d' = bal s x d' + moved acc (c_deposit (cfg s)) dn (price * g) x d') /\
  exists sb, subs s' !! id = Some sb /\ sb_kind sb = KNode nd g 0 (dn, price * g).
Proof.
  intros H Hg Hg0 Hb Hn Hp Hr.
  destruct (node_subscribe_gigabytes _ _ _ _ _ _ _ Hg H) as (n' & price' & b & amount & Hn' & _ & Hp' & Hm & Ha & _ & Hbal & (sb & Hsb & Hk & _)).
  rewrite Hn in Hn'. injection Hn' as <-. rewrite Hp in Hp'. injection Hp' as <-.
  apply chk_ok in Hm. subst b. rewrite afb_whole_gigabytes in Ha by assumption. injection Ha as <-.
  split; [exact Hbal|]. exists sb. auto.
Qed.

(** * hourly payouts and session settlements: the payment leaves the escrow and is split *)

Theorem payout_split s e s' :
  payout_step s e = Ok s' ->
  exists po fee,
    payouts s !! e.2 = Some po /\ proportion (po_price po).2 (p_node_share (pars s)) = Ok fee /\ 0 <= fee <= (po_price po).2 /\
    forall x d', bal s' x d' = bal s x d' + moved (c_deposit (cfg s)) (c_feecoll (cfg s)) (po_price po).1 fee x d'
                                          + moved (c_deposit (cfg s)) (po_node po) (po_price po).1 ((po_price po).2 - fee) x d'.
Proof.
  intros H. destruct (payout_step_effect _ _ _ H) as (po & fee & s2 & s3 & Hp & Hfee & Hge & H2 & H3 & ->).
  destruct (pay_transfers s _ _ _ _ _ _ _ _ _ H2 H3 eq_refl eq_refl eq_refl) as [T1 T2].
  exists po, fee. split; [exact Hp|]. split; [exact Hfee|]. split; [split; [exact (tr_amt _ _ _ _ _ _ _ _ T1)|lia]|].
  exact (bal_two_transfers _ _ _ _ _ _ _ _ _ _ _ _ _ _ T1 T2 eq_refl).
Qed.

Theorem settlement_split s sid acc nd b s' :
  session_inactive_hook s sid acc nd b = Ok s' ->
  (forall x d', bal s' x d' = bal s x d') \/
  exists dn pay fee,
    proportion pay (p_node_share (pars s)) = Ok fee /\ 0 <= fee <= pay /\
    forall x d', bal s' x d' = bal s x d' + moved (c_deposit (cfg s)) (c_feecoll (cfg s)) dn fee x d'
                                          + moved (c_deposit (cfg s)) nd dn (pay - fee) x d'.
Proof.
  intros H. destruct (session_inactive_hook_effect _ _ _ _ _ _ H) as (x & sb & _ & _ & _ & E).
  destruct (sb_kind sb) as [n g h dep|]; [|left; destruct E as (al & _ & ->); reflexivity].
  destruct (negb (h =? 0)); [left; subst s'; reflexivity|]. destruct E as (al & _ & E). cbv zeta in E.
  destruct (g =? 0); [left; subst s'; reflexivity|]. right.
  destruct E as (prev & cur & fee & s2 & s3 & _ & _ & _ & _ & Hfee & Hge & H2 & H3 & ->).
  destruct (pay_transfers s _ _ _ _ _ _ _ _ _ H2 H3 eq_refl eq_refl eq_refl) as [T1 T2].
  exists dep.1, (cur - prev), fee. split; [exact Hfee|]. split; [split; [exact (tr_amt _ _ _ _ _ _ _ _ T1)|lia]|].
  exact (bal_two_transfers _ _ _ _ _ _ _ _ _ _ _ _ _ _ T1 T2 eq_refl).
Qed.
