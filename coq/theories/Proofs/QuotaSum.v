(* C06 (run level): for every live subscription of every reachable state the granted bytes of its
   allocations add up to exactly what was bought: 10^9 x gigabytes of a pay-as-you-go subscription
   (0 for an hourly one), 10^9 x the plan's gigabytes for a plan subscription. *)
From Hub Require Import Base.Prelude Base.Arith Model.Types Model.Keeper Model.Handlers Model.Hooks Model.Step.
From Hub Require Import Proofs.Tactics Proofs.Effects Proofs.Frames Proofs.KeysInv Proofs.Lifecycle Proofs.Quota Proofs.InvDefs
  Proofs.IndexSub Proofs.IndexSub2 Proofs.IndexAll.

Definition bought (s : state) (sb : subscription) : option Z :=
  match sb_kind sb with
  | KNode _ gb _ _ => Some (GB * gb)
  | KPlan pid _ => (fun p => GB * pl_gb p) <$> get_plan s pid
  end.

Definition sum_inv (s : state) : Prop := forall id sb, subs s !! id = Some sb -> bought s sb = Some (gsum s id).

(* plans are never removed and keep their gigabytes *)
Definition plans_persist (s s' : state) : Prop :=
  forall pid p, get_plan s pid = Some p -> exists p', get_plan s' pid = Some p' /\ pl_gb p' = pl_gb p.

Lemma plans_persist_refl s : plans_persist s s.
Proof. intros pid p Hp. eauto. Qed.
Lemma plans_persist_frame s s' : plan_act s' = plan_act s -> plan_inact s' = plan_inact s -> plans_persist s s'.
Proof. intros E1 E2 pid p Hp. exists p. split; [|reflexivity]. unfold get_plan in *. rewrite E1, E2. exact Hp. Qed.

Lemma plans_persist_step s o s' : kinv s -> step s o = OOk s' -> plans_persist s s'.
Proof.
  intros Hi H pid p Hp. destruct (plan_step _ _ _ Hi H) as [(_ & _ & F)|(_ & (q & _ & _ & Hnone) & F)].
  - destruct (F _ _ Hp) as (p' & Hp' & S). exists p'. split; [exact Hp'|apply S].
  - exists p. split; [|reflexivity]. rewrite F; [exact Hp|]. intros ->. congruence.
Qed.

Lemma bought_persist s s' sb b : plans_persist s s' -> bought s sb = Some b -> bought s' sb = Some b.
Proof.
  intros Hp. unfold bought. destruct (sb_kind sb) as [| pid dn]; [auto|].
  destruct (get_plan s pid) as [p|] eqn:E; [|discriminate]. simpl. intros [= <-].
  destruct (Hp _ _ E) as (p' & -> & Egb). simpl. rewrite Egb. reflexivity.
Qed.

(* the generic transfer: subscriptions only evolve (same kind) or disappear, the sums of the surviving
   ones do not change, plans persist *)
Lemma sum_inv_transfer s s' :
  (forall id sb', subs s' !! id = Some sb' -> exists sb, subs s !! id = Some sb /\ sb_kind sb' = sb_kind sb) ->
  (forall id, is_Some (subs s' !! id) -> gsum s' id = gsum s id) ->
  plans_persist s s' -> sum_inv s -> sum_inv s'.
Proof.
  intros Hs Hg Hp Hinv id sb' Hsb'. destruct (Hs _ _ Hsb') as (sb & Hsb & Ek).
  rewrite (Hg id) by eauto. pose proof (Hinv _ _ Hsb) as Hb.
  apply (bought_persist s s' sb _ Hp) in Hb. unfold bought in *. rewrite Ek. exact Hb.
Qed.

Lemma gsum_frame s s' id : allocs s' = allocs s -> gsum s' id = gsum s id.
Proof. unfold gsum. intros ->. reflexivity. Qed.

Lemma sub_evo_kind s s' : sub_evo s s' -> forall id sb', subs s' !! id = Some sb' -> exists sb, subs s !! id = Some sb /\ sb_kind sb' = sb_kind sb.
Proof. intros [_ E _] id sb' H. destruct (E _ _ H) as (sb & Hsb & (_ & _ & K & _)). eauto. Qed.

(* plans change, subscriptions and allocations do not *)
Lemma sum_inv_plans s s' : subs s' = subs s -> allocs s' = allocs s -> plans_persist s s' -> sum_inv s -> sum_inv s'.
Proof.
  intros E1 E2 Hp. apply sum_inv_transfer; [rewrite E1; eauto|intros id _; apply gsum_frame; exact E2|exact Hp].
Qed.

Lemma sum_inv_frame s s' :
  subs s' = subs s -> allocs s' = allocs s -> plan_act s' = plan_act s -> plan_inact s' = plan_inact s -> sum_inv s -> sum_inv s'.
Proof. intros E1 E2 E3 E4. apply sum_inv_plans; [exact E1|exact E2|apply plans_persist_frame; assumption]. Qed.

Lemma sum_inv_keeps T s s' : keeps T s s' -> touched GSub T = false -> touched GPl T = false -> sum_inv s -> sum_inv s'.
Proof.
  intros K T1 T2. destruct (keeps_sub _ _ _ K T1) as (_ & Es & _ & _ & _ & _ & Ea & _). destruct (keeps_plan _ _ _ K T2) as (Ep & Ei & _).
  apply sum_inv_frame; assumption.
Qed.

(** * purchases *)

Lemma sum_inv_purchase s s' id sb b :
  kinv_sub s -> sum_inv s -> id = sub_count s + 1 -> subs s' = <[id := sb]> (subs s) -> plans_persist s s' ->
  bought s sb = Some b -> gsum s' id = b -> (forall id0, id0 <> id -> gsum s' id0 = gsum s id0) -> sum_inv s'.
Proof.
  intros Hk Hinv Eid Es Hpp Hb G1 G2 id0 sb0 Hsb0. rewrite Es in Hsb0.
  apply lookup_insert_Some in Hsb0 as [[<- <-]|[Hne Hsb0]].
  - rewrite G1. exact (bought_persist _ _ _ _ Hpp Hb).
  - rewrite G2 by congruence. apply (bought_persist s s' sb0 _ Hpp). apply Hinv. exact Hsb0.
Qed.

Lemma sum_create_node s acc nd g h dn s' id :
  kinv_sub s -> sum_inv s -> create_sub_for_node s acc nd g h dn = Ok (s', id) -> sum_inv s'.
Proof.
  intros Hk Hinv H. destruct (node_purchase_grants _ _ _ _ _ _ _ _ Hk H) as [G1 G2].
  destruct (create_sub_for_node_subs _ _ _ _ _ _ _ _ H) as (inact & dep & Eid & _ & Es & _).
  destruct (keeps_plan _ _ _ (create_sub_for_node_keeps _ _ _ _ _ _ _ _ H) eq_refl) as (E1 & E2 & _).
  exact (sum_inv_purchase _ _ _ _ _ Hk Hinv Eid Es (plans_persist_frame _ _ E1 E2) eq_refl G1 G2).
Qed.

Lemma sum_create_plan s acc pid dn s' id :
  kinv_sub s -> sum_inv s -> create_sub_for_plan s acc pid dn = Ok (s', id) -> sum_inv s'.
Proof.
  intros Hk Hinv H. destruct (plan_purchase_grants _ _ _ _ _ _ Hk H) as [(p & Hp & G1) G2].
  destruct (create_sub_for_plan_subs _ _ _ _ _ _ H) as (p0 & _ & Eid & _ & Es & _).
  destruct (keeps_plan _ _ _ (create_sub_for_plan_keeps _ _ _ _ _ _ H) eq_refl) as (E1 & E2 & _).
  refine (sum_inv_purchase _ _ _ _ _ Hk Hinv Eid Es (plans_persist_frame _ _ E1 E2) _ G1 G2).
  unfold bought. simpl. rewrite Hp. reflexivity.
Qed.

(** * handlers *)

Lemma sum_handle s m s' : kinv s -> sum_inv s -> handle s m = Ok s' -> plans_persist s s' -> sum_inv s'.
Proof.
  intros Hi Hinv H Hpp. pose proof (handle_frame _ _ _ H) as K.
  destruct (touched GSub (msg_groups m)) eqn:Ht.
  2:{ destruct (keeps_sub _ _ _ K Ht) as (_ & Es & _ & _ & _ & _ & Ea & _). exact (sum_inv_plans _ _ Es Ea Hpp Hinv). }
  destruct m; try discriminate Ht; simpl in H.
  - (* node subscribe *)
    destruct (h_node_subscribe_effect _ _ _ _ _ _ _ H) as (s1 & id & _ & _ & Hc & ->).
    apply (sum_inv_frame s1); [reflexivity..|]. eapply sum_create_node; [apply Hi|exact Hinv|exact Hc].
  - (* plan subscribe *)
    destruct (h_plan_subscribe_effect _ _ _ _ _ H) as (s1 & id0 & Hc & ->).
    apply (sum_inv_frame s1); [reflexivity..|]. eapply sum_create_plan; [apply Hi|exact Hinv|exact Hc].
  - (* cancel: statuses and queues only *)
    apply (sum_inv_transfer s); [apply sub_evo_kind; eapply evo_h_sub_cancel; [apply Hi|exact H]| |exact Hpp|exact Hinv].
    intros id0 _. apply gsum_frame. exact (h_sub_cancel_allocs _ _ _ _ H).
  - (* allocate: quota moves between two holders of one subscription *)
    apply (sum_inv_transfer s); [| |exact Hpp|exact Hinv].
    + destruct (h_sub_allocate_effect _ _ _ _ _ _ H) as (sb & fal & E). cbv zeta in E. destruct E as (_ & _ & _ & _ & _ & _ & _ & _ & _ & ->). eauto.
    + intros id0 _. eapply allocate_conserves; [apply Hi|exact H].
Qed.

(** * hooks *)

Lemma sum_payout_step s e s' : sum_inv s -> payout_step s e = Ok s' -> sum_inv s'.
Proof.
  intros Hinv H. destruct (payout_step_allocs _ _ _ H) as (E1 & _ & E3 & E4).
  destruct (payout_step_subs _ _ _ H) as (po & _ & _ & S1 & _). eapply sum_inv_frame; eauto.
Qed.

Lemma sum_session_expire_one s e s' : kinv s -> sum_inv s -> session_expire_one s e = Ok s' -> sum_inv s'.
Proof.
  intros Hi Hinv H. pose proof (session_expire_one_keeps _ _ _ H) as Hk.
  destruct (session_expire_one_effect _ _ _ H) as (x & Hx & [(_ & ->)|(_ & _ & s1 & Hh & ->)]).
  - eapply sum_inv_frame; [..|exact Hinv]; reflexivity.
  - destruct (session_inactive_hook_subs _ _ _ _ _ _ Hh) as (x0 & sb0 & _ & _ & _ & S1 & _).
    destruct (keeps_plan _ _ _ (session_inactive_hook_keeps _ _ _ _ _ _ Hh) eq_refl) as (P1 & P2 & _).
    apply (sum_inv_transfer s); [simpl; rewrite S1; eauto| |apply plans_persist_frame; assumption|exact Hinv].
    intros id0 _. transitivity (gsum s1 id0); [reflexivity|].
    match type of Hh with session_inactive_hook ?a _ _ _ _ = _ => set (s0 := a) in * end.
    assert (Hk0 : kinv_sub s0) by (eapply kinv_sub_frame; [..|apply (ki_sub _ Hi)]; reflexivity).
    rewrite (settlement_conserves s0 _ _ _ _ s1 Hk0 Hh id0). reflexivity.
Qed.

(* removing the allocations of one subscription does not change the sums of the others *)
Lemma gsum_removed s s' id :
  kinv_sub s -> (forall k, allocs s' !! k = if bool_decide (k.1 = id) then None else allocs s !! k) ->
  forall id0, id0 <> id -> gsum s' id0 = gsum s id0.
Proof.
  intros Hk Hal id0 Hne. unfold gsum.
  assert (Hsub : allocs s' = filter (fun kv => kv.1.1 <> id) (allocs s)).
  { apply map_eq. intros k. rewrite Hal. case_bool_decide as E.
    - symmetry. apply map_filter_lookup_None. right. intros v _ Hc. simpl in Hc. contradiction.
    - destruct (allocs s !! k) as [v|] eqn:Ev.
      + symmetry. apply map_filter_lookup_Some. split; [exact Ev|exact E].
      + symmetry. apply map_filter_lookup_None. left. exact Ev. }
  rewrite Hsub. clear Hsub Hal.
  assert (Hz : forall k al, allocs s !! k = Some al -> k.1 = id -> granted_of id0 al = 0).
  { intros k al Hl Ek. destruct (k_al _ Hk _ _ Hl) as (E1 & _). unfold granted_of. case_bool_decide; [congruence|reflexivity]. }
  revert Hz. generalize (allocs s). intros m. induction m as [|k v m Hfresh IH] using map_ind; intros Hz.
  - rewrite map_filter_empty. reflexivity.
  - destruct (decide (k.1 = id)) as [Ek|Ek].
    + rewrite map_filter_insert_not' by (simpl; intros; try congruence; tauto).
      rewrite msum_insert_fresh by exact Hfresh. rewrite (Hz k v) by (try apply lookup_insert; exact Ek).
      rewrite IH; [lia|]. intros k' al Hl. apply Hz. rewrite lookup_insert_ne; [exact Hl|]. intros ->. congruence.
    + rewrite map_filter_insert_True by exact Ek.
      rewrite !msum_insert_fresh; [|exact Hfresh|apply map_filter_lookup_None; left; exact Hfresh].
      rewrite IH; [reflexivity|]. intros k' al Hl. apply Hz. rewrite lookup_insert_ne; [exact Hl|]. intros ->. congruence.
Qed.

Lemma sum_sub_expire_one s e s' : kinv s -> idx_sub s -> sum_inv s -> sub_expire_one s e = Ok s' -> sum_inv s'.
Proof.
  intros Hi Hix Hinv H. pose proof (sub_expire_one_keeps _ _ _ H) as Hk.
  pose proof (evo_sub_expire_one _ _ _ (ki_sub _ Hi) H) as Hev.
  assert (Hpp : plans_persist s s') by (destruct (keeps_plan _ _ _ Hk eq_refl) as (P1 & P2 & _); apply plans_persist_frame; assumption).
  destruct (sub_expire_one_effect _ _ _ H) as (sb & Hsb & [(_ & s1 & Hp & Hd)|(Hact & _)]).
  - (* demotion: allocations untouched *)
    apply (sum_inv_transfer s); [apply sub_evo_kind; exact Hev| |exact Hpp|exact Hinv].
    intros id0 _. apply gsum_frame. apply (sub_demote_fields _ _ _ _ Panic _ Hp ltac:(intros ?; discriminate) Hd).
  - (* removal *)
    destruct (sub_remove_spec s e s' sb (ki_sub _ Hi) Hix Hsb Hact H) as (R1 & _ & R3 & _).
    apply (sum_inv_transfer s); [apply sub_evo_kind; exact Hev| |exact Hpp|exact Hinv].
    intros id0 [sb0 Hsb0]. rewrite R1 in Hsb0. apply lookup_delete_Some in Hsb0 as [Hne _].
    apply (gsum_removed s s' e.2 (ki_sub _ Hi) R3). congruence.
Qed.

(** * every operation, every history *)

Theorem sum_step s o s' : kinv s -> idx_sub s -> sum_inv s -> step s o = OOk s' -> sum_inv s'.
Proof.
  intros Hi Hix Hinv Hstep. pose proof (plans_persist_step _ _ _ Hi Hstep) as Hpp. apply step_inv in Hstep. destruct o.
  - rename Hstep into H. rename s' into x.
    apply begin_block_effect in H as (s1 & Hm & H). apply mint_begin_block_keeps in Hm.
    assert (H1 : sum_inv s1) by (apply (sum_inv_keeps _ _ _ Hm eq_refl eq_refl); eapply (sum_inv_frame s); [..|exact Hinv]; reflexivity).
    unfold sub_begin_block in H. eapply (rfold_inv sum_inv); [|exact H1|exact H].
    intros a e b Ha Hs. eapply sum_payout_step; eauto.
  - destruct Hstep as [_ H]. rename s' into x.
    eapply (sum_handle (clear_events s)); [apply kinv_clear; exact Hi| |exact H|exact Hpp].
    eapply (sum_inv_frame s); [..|exact Hinv]; reflexivity.
  - destruct Hstep as [_ ->]. apply (fold_left_inv sum_inv).
    + intros x c Hx. pose proof (apply_pchange_keeps x c). eapply sum_inv_keeps; eauto.
    + eapply (sum_inv_frame s); [..|exact Hinv]; reflexivity.
  - destruct Hstep as (se & H & ->).
    apply end_block_effect in H as (s1 & s2 & H1 & H2 & H3).
    assert (Hi0 : kinv (clear_events s)) by (apply kinv_clear; exact Hi).
    pose proof (kinv_node_end_block _ _ Hi0 H1) as Hi1. apply node_end_block_keeps in H1.
    assert (Hx1 : idx_sub s1) by (apply (idx_sub_keeps _ _ _ H1 eq_refl); eapply (idx_sub_frame s); [..|exact Hix]; reflexivity).
    assert (Hs1 : sum_inv s1) by (apply (sum_inv_keeps _ _ _ H1 eq_refl eq_refl); eapply (sum_inv_frame s); [..|exact Hinv]; reflexivity).
    assert (G2 : kinv s2 /\ idx_sub s2 /\ sum_inv s2).
    { unfold session_end_block in H2. eapply (rfold_inv (fun y => kinv y /\ idx_sub y /\ sum_inv y)); [|split; [exact Hi1|split; eassumption]|exact H2].
      intros a e b (Ha & Hxa & Hsa) Hs. split; [eapply kinv_session_expire_one; eauto|].
      split; [eapply idx_sub_session_expire_one; eauto|eapply sum_session_expire_one; eauto]. }
    assert (G3 : kinv se /\ idx_sub se /\ sum_inv se).
    { unfold sub_end_block in H3. eapply (rfold_inv (fun y => kinv y /\ idx_sub y /\ sum_inv y)); [|exact G2|exact H3].
      intros a e b (Ha & Hxa & Hsa) Hs. split; [eapply kinv_sub_expire_one; eauto|].
      split; [eapply idx_sub_expire_one; eauto|eapply sum_sub_expire_one; eauto]. }
    eapply (sum_inv_frame se); [..|apply G3]; reflexivity.
Qed.

Lemma sum_inv_init g : sum_inv (init g).
Proof.
  intros id sb Hsb. destruct (keeps_sub _ _ _ (init_keeps g) eq_refl) as (_ & E & _). rewrite E in Hsb. simpl in Hsb. rewrite lookup_empty in Hsb. discriminate.
Qed.

Theorem sum_run ops : forall s i s', all_idx s -> sum_inv s -> run_from s ops i = RunOk s' -> sum_inv s'.
Proof.
  intros s i s' Hall Hinv H. refine (proj2 (run_from_inv (fun x => all_idx x /\ sum_inv x) ops s i s' _ _ (conj Hall Hinv) H)).
  - intros x o x' [Ax Sx] E. split; [eapply all_idx_step; eauto|exact (sum_step _ _ _ (ai_k _ Ax) (ai_sub _ Ax) Sx E)].
  - intros x [Ax Sx]. split; [apply all_idx_clear; exact Ax|eapply (sum_inv_frame x); [..|exact Sx]; reflexivity].
Qed.

(* the granted bytes of every live subscription of every reachable state add up to what was bought *)
Theorem granted_sum_is_bought g ops s' id sb :
  run (init g) ops = RunOk s' -> subs s' !! id = Some sb ->
  match sb_kind sb with
  | KNode _ gb _ _ => gsum s' id = GB * gb
  | KPlan pid _ => exists p, get_plan s' pid = Some p /\ gsum s' id = GB * pl_gb p
  end.
Proof.
  intros H Hsb. pose proof (sum_run ops (init g) 0%nat s' (all_idx_init g) (sum_inv_init g) H _ _ Hsb) as Hb.
  unfold bought in Hb. destruct (sb_kind sb) as [nd gb h dep|pid dn].
  - injection Hb as <-. reflexivity.
  - destruct (get_plan s' pid) as [p|]; [|discriminate]. simpl in Hb. injection Hb as <-. eauto.
Qed.
