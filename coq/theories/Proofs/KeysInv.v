(* Key/record agreement: every record is stored under the key built from its own
   identifier or address, in the status partition that matches its stored status,
   the two partitions of a kind are disjoint, and identifiers are between 1 and the
   counter of their kind.  Foundation of C09 and C18; preserved by every operation. *)
From Hub Require Import Base.Prelude Base.Arith Model.Types Model.Keeper Model.Handlers Model.Hooks Model.Step.
From Hub Require Import Proofs.Tactics Proofs.Sorting Proofs.Effects Proofs.Frames.

Definition kprov (st : status) (a : addr) (p : provider) : Prop := pv_addr p = a /\ pv_status p = st.
Definition knode (st : status) (a : addr) (n : node) : Prop := nd_addr n = a /\ nd_status n = st.
Definition kplan (st : status) (c id : Z) (p : plan) : Prop := pl_id p = id /\ pl_status p = st /\ 1 <= id <= c.
Definition live (st : status) : Prop := st = SActive \/ st = SPending.
Definition ksub (c id : Z) (sb : subscription) : Prop := sb_id sb = id /\ 1 <= id <= c /\ live (sb_status sb).
Definition kalloc (c : Z) (k : Z * addr) (al : allocation) : Prop := al_id al = k.1 /\ al_addr al = k.2 /\ 1 <= k.1 <= c.
Definition kpay (c id : Z) (po : payout) : Prop := po_id po = id /\ 1 <= id <= c.
Definition ksess (c id : Z) (x : session) : Prop := ss_id x = id /\ 1 <= id <= c /\ live (ss_status x).

Definition disjoint_parts {K V} `{Countable K} (a b : gmap K V) : Prop := forall k v, a !! k = Some v -> b !! k = None.

Record kinv_pv (s : state) : Prop := {
  k_pa : map_Forall (kprov SActive) (prov_act s);
  k_pi : map_Forall (kprov SInactive) (prov_inact s);
  k_pd : disjoint_parts (prov_act s) (prov_inact s) }.
Record kinv_node (s : state) : Prop := {
  k_na : map_Forall (knode SActive) (node_act s);
  k_ni : map_Forall (knode SInactive) (node_inact s);
  k_nd : disjoint_parts (node_act s) (node_inact s) }.
Record kinv_plan (s : state) : Prop := {
  k_la : map_Forall (kplan SActive (plan_count s)) (plan_act s);
  k_li : map_Forall (kplan SInactive (plan_count s)) (plan_inact s);
  k_ld : disjoint_parts (plan_act s) (plan_inact s);
  k_lc : 0 <= plan_count s }.
Record kinv_sub (s : state) : Prop := {
  k_sub : map_Forall (ksub (sub_count s)) (subs s);
  k_al : map_Forall (kalloc (sub_count s)) (allocs s);
  k_po : map_Forall (kpay (sub_count s)) (payouts s);
  k_sc : 0 <= sub_count s }.
Record kinv_sess (s : state) : Prop := {
  k_ss : map_Forall (ksess (sess_count s)) (sessions s);
  k_ssc : 0 <= sess_count s }.

Record kinv (s : state) : Prop := {
  ki_pv : kinv_pv s; ki_node : kinv_node s; ki_plan : kinv_plan s; ki_sub : kinv_sub s; ki_sess : kinv_sess s }.

(** * frames *)

Lemma kinv_pv_frame s s' : prov_act s' = prov_act s -> prov_inact s' = prov_inact s -> kinv_pv s -> kinv_pv s'.
Proof. intros E1 E2 [A B C]. split; rewrite ?E1, ?E2; assumption. Qed.
Lemma kinv_node_frame s s' : node_act s' = node_act s -> node_inact s' = node_inact s -> kinv_node s -> kinv_node s'.
Proof. intros E1 E2 [A B C]. split; rewrite ?E1, ?E2; assumption. Qed.
Lemma kinv_plan_frame s s' :
  plan_act s' = plan_act s -> plan_inact s' = plan_inact s -> plan_count s' = plan_count s -> kinv_plan s -> kinv_plan s'.
Proof. intros E1 E2 E3 [A B C D]. split; rewrite ?E1, ?E2, ?E3; assumption. Qed.
Lemma kinv_sub_frame s s' :
  subs s' = subs s -> allocs s' = allocs s -> payouts s' = payouts s -> sub_count s' = sub_count s -> kinv_sub s -> kinv_sub s'.
Proof. intros E1 E2 E3 E4 [A B C D]. split; rewrite ?E1, ?E2, ?E3, ?E4; assumption. Qed.
Lemma kinv_sess_frame s s' :
  sessions s' = sessions s -> sess_count s' = sess_count s -> kinv_sess s -> kinv_sess s'.
Proof. intros E1 E2 [A B]. split; rewrite ?E1, ?E2; assumption. Qed.

Lemma kinv_keeps T s s' :
  keeps T s s' -> kinv s ->
  (touched GPv T = true -> kinv_pv s') -> (touched GNode T = true -> kinv_node s') ->
  (touched GPl T = true -> kinv_plan s') -> (touched GSub T = true -> kinv_sub s') ->
  (touched GSess T = true -> kinv_sess s') -> kinv s'.
Proof.
  intros (_ & _ & _ & _ & Kpv & Kpl & Kn & Ksub & Kss & _) [I1 I2 I3 I4 I5] H1 H2 H3 H4 H5.
  split.
  - destruct (touched GPv T); [auto|]. simpl in Kpv. eapply kinv_pv_frame; [..|exact I1]; tauto.
  - destruct (touched GNode T); [auto|]. simpl in Kn. eapply kinv_node_frame; [..|exact I2]; tauto.
  - destruct (touched GPl T); [auto|]. simpl in Kpl. eapply kinv_plan_frame; [..|exact I3]; tauto.
  - destruct (touched GSub T); [auto|]. simpl in Ksub. eapply kinv_sub_frame; [..|exact I4]; tauto.
  - destruct (touched GSess T); [auto|]. simpl in Kss. eapply kinv_sess_frame; [..|exact I5]; tauto.
Qed.

(* a state related to [s] by [keeps T] where the listed groups are untouched *)
Ltac kinv_frame Hk Hi :=
  eapply (kinv_keeps _ _ _ Hk Hi); cbn [touched existsb grp_eqb orb]; try (intros; discriminate).

(** * disjoint partitions under the update patterns of the keepers *)

Section parts.
  Context {K V : Type} `{Countable K}.
  Implicit Types a b : gmap K V.

  Lemma dp_insert_l a b k v : disjoint_parts a b -> b !! k = None -> disjoint_parts (<[k := v]> a) b.
  Proof. intros D Hb k' v'. destruct (decide (k = k')) as [->|Hne]; [auto|]. rewrite lookup_insert_ne by exact Hne. apply D. Qed.
  Lemma dp_insert_r a b k v : disjoint_parts a b -> a !! k = None -> disjoint_parts a (<[k := v]> b).
  Proof.
    intros D Ha k' v' Hk'. destruct (decide (k = k')) as [->|Hne]; [congruence|].
    rewrite lookup_insert_ne by exact Hne. eapply D; eauto.
  Qed.
  Lemma dp_delete_l a b k : disjoint_parts a b -> disjoint_parts (delete k a) b.
  Proof. intros D k' v' Hk'. apply lookup_delete_Some in Hk' as [_ Hk']. eapply D; eauto. Qed.
  Lemma dp_delete_r a b k : disjoint_parts a b -> disjoint_parts a (delete k b).
  Proof. intros D k' v' Hk'. destruct (decide (k = k')) as [->|Hne]; [apply lookup_delete|]. rewrite lookup_delete_ne by exact Hne. eapply D; eauto. Qed.
  Lemma dp_sym_none a b k v : disjoint_parts a b -> b !! k = Some v -> a !! k = None.
  Proof. intros D Hb. destruct (a !! k) eqn:E; [|reflexivity]. rewrite (D _ _ E) in Hb. discriminate. Qed.
  Lemma dp_empty b : disjoint_parts (∅ : gmap K V) b.
  Proof. intros k v H0. rewrite lookup_empty in H0. discriminate. Qed.
End parts.

Lemma kinv_pv_emit e s : kinv_pv s -> kinv_pv (emit e s).
Proof. apply kinv_pv_frame; reflexivity. Qed.
Lemma kinv_node_emit e s : kinv_node s -> kinv_node (emit e s).
Proof. apply kinv_node_frame; reflexivity. Qed.
Lemma kinv_plan_emit e s : kinv_plan s -> kinv_plan (emit e s).
Proof. apply kinv_plan_frame; reflexivity. Qed.
Lemma kinv_sub_emit e s : kinv_sub s -> kinv_sub (emit e s).
Proof. apply kinv_sub_frame; reflexivity. Qed.
Lemma kinv_sess_emit e s : kinv_sess s -> kinv_sess (emit e s).
Proof. apply kinv_sess_frame; reflexivity. Qed.

Lemma get_provider_cases s a p :
  get_provider s a = Some p ->
  prov_act s !! a = Some p \/ (prov_act s !! a = None /\ prov_inact s !! a = Some p).
Proof. unfold get_provider. destruct (prov_act s !! a); [intros [= ->]; auto|auto]. Qed.

Lemma get_provider_kinv s a p :
  kinv_pv s -> get_provider s a = Some p ->
  pv_addr p = a /\
  ((pv_status p = SActive /\ prov_act s !! a = Some p /\ prov_inact s !! a = None) \/
   (pv_status p = SInactive /\ prov_act s !! a = None /\ prov_inact s !! a = Some p)).
Proof.
  intros [A B D] H. apply get_provider_cases in H as [H|[H1 H2]].
  - destruct (A _ _ H) as [E1 E2]. split; [exact E1|]. left. repeat split; auto. eapply D; eauto.
  - destruct (B _ _ H2) as [E1 E2]. split; [exact E1|]. right. auto.
Qed.

Lemma kinv_pv_set s p s' :
  kinv_pv s -> set_provider s p = Ok s' ->
  (pv_status p = SActive -> prov_inact s !! pv_addr p = None) ->
  (pv_status p = SInactive -> prov_act s !! pv_addr p = None) -> kinv_pv s'.
Proof.
  intros [A B D] H H1 H2. unfold set_provider in H. destruct (pv_status p) eqn:E; try discriminate; injection H as <-; split; simpl; auto.
  - apply map_Forall_insert_2; [split; auto|exact A].
  - apply dp_insert_l; auto.
  - apply map_Forall_insert_2; [split; auto|exact B].
  - apply dp_insert_r; auto.
Qed.

Lemma kinv_h_prov_register s from n i w d s' : kinv s -> h_prov_register s from n i w d = Ok s' -> kinv s'.
Proof.
  intros Hi H. pose proof (h_prov_register_keeps _ _ _ _ _ _ _ H) as Hk. kinv_frame Hk Hi. intros _.
  apply h_prov_register_effect in H as (s1 & Hn & H1 & ->). apply bool_decide_eq_false in Hn.
  destruct (keeps_pv _ _ _ (fund_pool_keeps _ _ _ _ H1) eq_refl) as [E1 E2]. destruct (ki_pv _ Hi) as [A B D].
  split; simpl; rewrite ?E1, ?E2; [exact A|apply map_Forall_insert_2; [split; reflexivity|exact B]|].
  apply dp_insert_r; [exact D|]. destruct (prov_act s !! ta_bytes from) eqn:E; [|reflexivity].
  exfalso. apply Hn. unfold get_provider. rewrite E. eauto.
Qed.

Lemma kinv_h_prov_update s from n i w d st s' : kinv s -> h_prov_update s from n i w d st = Ok s' -> kinv s'.
Proof.
  intros Hi H. pose proof (h_prov_update_keeps _ _ _ _ _ _ _ _ H) as Hk. kinv_frame Hk Hi. intros _.
  unfold h_prov_update in H. destruct (get_provider s (ta_bytes from)) as [p|] eqn:Hg; [|discriminate].
  destruct (get_provider_kinv _ _ _ (ki_pv _ Hi) Hg) as [Ea Hcase].
  destruct (ki_pv _ Hi) as [A B D].
  case_bool_decide as Hst.
  - (* status unspecified: the record is rewritten in its own partition *)
    apply rbind_ok in H as (s2 & Hset & H). injection H as <-.
    apply kinv_pv_emit.
    eapply kinv_pv_set; [split; eauto|exact Hset| |]; simpl; rewrite Ea; intros Hs; destruct Hcase as [(E&_&?)|(E&?&_)]; congruence.
  - apply rbind_ok in H as (s2 & Hset & H). injection H as <-.
    apply kinv_pv_emit.
    eapply kinv_pv_set; [|exact Hset| |]; simpl; rewrite ?Ea.
    + destruct Hcase as [(E & E1 & E2)|(E & E1 & E2)]; rewrite E; repeat case_bool_decide; split; simpl;
        try (apply map_Forall_delete); try (apply dp_delete_l); try (apply dp_delete_r); auto; intuition congruence.
    + intros ->. destruct Hcase as [(E & E1 & E2)|(E & E1 & E2)]; rewrite E; repeat case_bool_decide; simpl;
        rewrite ?lookup_delete; auto; intuition congruence.
    + intros ->. destruct Hcase as [(E & E1 & E2)|(E & E1 & E2)]; rewrite E; repeat case_bool_decide; simpl;
        rewrite ?lookup_delete; auto; intuition congruence.
Qed.

Lemma get_node_cases s a n :
  get_node s a = Some n ->
  node_act s !! a = Some n \/ (node_act s !! a = None /\ node_inact s !! a = Some n).
Proof. unfold get_node. destruct (node_act s !! a); [intros [= ->]; auto|auto]. Qed.

Lemma get_node_kinv s a n :
  kinv_node s -> get_node s a = Some n ->
  nd_addr n = a /\
  ((nd_status n = SActive /\ node_act s !! a = Some n /\ node_inact s !! a = None) \/
   (nd_status n = SInactive /\ node_act s !! a = None /\ node_inact s !! a = Some n)).
Proof.
  intros [A B D] H. apply get_node_cases in H as [H|[H1 H2]].
  - destruct (A _ _ H) as [E1 E2]. split; [exact E1|]. left. repeat split; auto. eapply D; eauto.
  - destruct (B _ _ H2) as [E1 E2]. split; [exact E1|]. right. auto.
Qed.

Lemma kinv_node_set s n s' :
  kinv_node s -> set_node s n = Ok s' ->
  (nd_status n = SActive -> node_inact s !! nd_addr n = None) ->
  (nd_status n = SInactive -> node_act s !! nd_addr n = None) -> kinv_node s'.
Proof.
  intros [A B D] H H1 H2. unfold set_node in H. destruct (nd_status n) eqn:E; try discriminate; injection H as <-; split; simpl; auto.
  - apply map_Forall_insert_2; [split; auto|exact A].
  - apply dp_insert_l; auto.
  - apply map_Forall_insert_2; [split; auto|exact B].
  - apply dp_insert_r; auto.
Qed.

Lemma kinv_h_node_register s from gb hr url s' : kinv s -> h_node_register s from gb hr url = Ok s' -> kinv s'.
Proof.
  intros Hi H. pose proof (h_node_register_keeps _ _ _ _ _ _ H) as Hk. kinv_frame Hk Hi. intros _.
  apply h_node_register_effect in H as (s1 & _ & _ & Hn & H1 & ->). apply bool_decide_eq_false in Hn.
  destruct (keeps_node _ _ _ (fund_pool_keeps _ _ _ _ H1) eq_refl) as (E1 & E2 & _). destruct (ki_node _ Hi) as [A B D].
  split; simpl; rewrite ?E1, ?E2; [exact A|apply map_Forall_insert_2; [split; reflexivity|exact B]|].
  apply dp_insert_r; [exact D|]. destruct (node_act s !! ta_bytes from) eqn:E; [|reflexivity].
  exfalso. apply Hn. unfold get_node. rewrite E. eauto.
Qed.

Lemma kinv_node_reset s n n' s' :
  kinv_node s -> get_node s (nd_addr n') = Some n -> nd_status n' = nd_status n -> set_node s n' = Ok s' -> kinv_node s'.
Proof.
  intros Hn Hg Hst Hs. destruct (get_node_kinv _ _ _ Hn Hg) as [Ea Hcase].
  eapply kinv_node_set; [exact Hn|exact Hs| |]; rewrite Hst; intros E; destruct Hcase as [(E' & ? & ?)|(E' & ? & ?)]; congruence.
Qed.

Lemma kinv_h_node_update_details s from gb hr url s' : kinv s -> h_node_update_details s from gb hr url = Ok s' -> kinv s'.
Proof.
  intros Hi H. pose proof (h_node_update_details_keeps _ _ _ _ _ _ H) as Hk. kinv_frame Hk Hi. intros _.
  unfold h_node_update_details in H. res_inv. apply kinv_node_emit.
  match goal with Hs : set_node s ?n' = Ok _, Hg : get_node s _ = Some ?n |- _ =>
    pose proof (proj1 (get_node_kinv _ _ _ (ki_node _ Hi) Hg)) as Ea;
    eapply (kinv_node_reset s n n'); [apply Hi| | |exact Hs]; simpl; [rewrite Ea; exact Hg|reflexivity] end.
Qed.

Lemma kinv_h_node_update_status s from st s' : kinv s -> h_node_update_status s from st = Ok s' -> kinv s'.
Proof.
  intros Hi H. pose proof (h_node_update_status_keeps _ _ _ _ H) as Hk. kinv_frame Hk Hi. intros _.
  apply h_node_update_status_effect in H as (n & Hg & Hst & ->).
  destruct (get_node_kinv _ _ _ (ki_node _ Hi) Hg) as [Ea Hcase]. destruct (ki_node _ Hi) as [A B D].
  assert (Hn' : forall st', knode st' (ta_bytes from) (node_with_status s n st')) by (split; [exact Ea|reflexivity]).
  (* old status x new status: the record stays in its part, or leaves one part and enters the other *)
  destruct Hcase as [(E & E1 & E2)|(E & E1 & E2)]; destruct Hst as [-> | ->];
    split; cbn [node_status_state emit node_act node_inact set]; rewrite E, ?Ea; simpl;
    try assumption; try (apply map_Forall_insert_2; [apply Hn'|assumption]); try (apply map_Forall_delete; assumption).
  - apply dp_insert_l; assumption.
  - apply dp_insert_r; [apply dp_delete_l; exact D|apply lookup_delete].
  - apply dp_insert_l; [apply dp_delete_r; exact D|apply lookup_delete].
  - apply dp_insert_r; assumption.
Qed.


Lemma elem_of_all_nodes s n :
  kinv_node s -> n ∈ all_nodes s ->
  (node_act s !! nd_addr n = Some n /\ nd_status n = SActive) \/
  (node_inact s !! nd_addr n = Some n /\ nd_status n = SInactive).
Proof.
  intros [A B D] H. unfold all_nodes in H. apply elem_of_app in H as [H|H];
    apply elem_of_list_fmap in H as ([a x] & -> & H); apply elem_of_sort_by, elem_of_map_to_list in H; simpl.
  - destruct (A _ _ H) as [E1 E2]. left. rewrite E1. auto.
  - destruct (B _ _ H) as [E1 E2]. right. rewrite E1. auto.
Qed.

Definition same_dom {K V} `{Countable K} (a b : gmap K V) : Prop := forall k, is_Some (a !! k) <-> is_Some (b !! k).

Lemma same_dom_insert {K V} `{Countable K} (a b : gmap K V) k v :
  same_dom a b -> is_Some (a !! k) -> same_dom (<[k := v]> a) b.
Proof.
  intros Hd Hk k'. destruct (decide (k = k')) as [->|Hne].
  - rewrite lookup_insert. split; [intros _; apply Hd; exact Hk|eauto].
  - rewrite lookup_insert_ne by exact Hne. apply Hd.
Qed.

Lemma kinv_node_sweep_one s0 s n s' :
  kinv_node s0 -> n ∈ all_nodes s0 ->
  kinv_node s /\ same_dom (node_act s) (node_act s0) /\ same_dom (node_inact s) (node_inact s0) ->
  node_sweep_one s n = Ok s' ->
  kinv_node s' /\ same_dom (node_act s') (node_act s0) /\ same_dom (node_inact s') (node_inact s0).
Proof.
  intros H0 Hn (Hk & Da & Di) H. unfold node_sweep_one in H. apply rbind_ok in H as (s1 & Hset & H). injection H as <-.
  apply must_ok in Hset.
  match type of Hset with set_node s ?nn = _ => set (n' := nn) in * end.
  assert (Ea : nd_addr n' = nd_addr n) by reflexivity. assert (Es : nd_status n' = nd_status n) by reflexivity.
  destruct (elem_of_all_nodes _ _ H0 Hn) as [[H1 H2]|[H1 H2]].
  - assert (Hin : is_Some (node_act s !! nd_addr n)) by (apply Da; eauto).
    assert (Hno : node_inact s !! nd_addr n = None) by (destruct Hin as [y Hy]; eapply (k_nd _ Hk); eauto).
    split; [apply kinv_node_emit; eapply kinv_node_set; [exact Hk|exact Hset| |]; rewrite Ea, Es; intros; congruence|].
    unfold set_node in Hset. rewrite Es, H2 in Hset. injection Hset as <-. simpl. split; [|exact Di].
    apply same_dom_insert; auto.
  - assert (Hin : is_Some (node_inact s !! nd_addr n)) by (apply Di; eauto).
    assert (Hno : node_act s !! nd_addr n = None) by (destruct Hin as [y Hy]; eapply dp_sym_none; [apply Hk|eauto]).
    split; [apply kinv_node_emit; eapply kinv_node_set; [exact Hk|exact Hset| |]; rewrite Ea, Es; intros; congruence|].
    unfold set_node in Hset. rewrite Es, H2 in Hset. injection Hset as <-. simpl. split; [exact Da|].
    apply same_dom_insert; auto.
Qed.

Lemma kinv_node_expire_one s e s' : kinv_node s -> node_expire_one s e = Ok s' -> kinv_node s'.
Proof.
  intros Hk H. unfold node_expire_one in H. destruct (get_node s e.2) as [n|] eqn:Hg; [|discriminate].
  apply rbind_ok in H as (s2 & Hset & H). injection H as <-. apply must_ok in Hset. apply kinv_node_emit.
  destruct Hk as [A B D].
  eapply kinv_node_set; [|exact Hset| |]; simpl; try discriminate.
  - split; simpl; [apply map_Forall_delete; exact A|exact B|apply dp_delete_l; exact D].
  - intros _. apply lookup_delete.
Qed.

Lemma kinv_node_end_block s s' : kinv s -> node_end_block s = Ok s' -> kinv s'.
Proof.
  intros Hi H. pose proof (node_end_block_keeps _ _ H) as Hk. kinv_frame Hk Hi. intros _.
  unfold node_end_block in H. apply rbind_ok in H as (s1 & Hsw & H).
  assert (H1 : kinv_node s1).
  { destruct (_ || _); [|injection Hsw as <-; apply Hi].
    assert (J : kinv_node s1 /\ same_dom (node_act s1) (node_act s) /\ same_dom (node_inact s1) (node_inact s)).
    { eapply (rfold_inv_in (fun x => kinv_node x /\ same_dom (node_act x) (node_act s) /\ same_dom (node_inact x) (node_inact s)));
        [|split; [apply Hi|split; intros k; reflexivity]|exact Hsw].
      intros x n x' Hn Hx Hstep. eapply kinv_node_sweep_one; eauto. apply Hi. }
    apply J. }
  eapply (rfold_inv kinv_node); [|exact H1|exact H]. intros; eapply kinv_node_expire_one; eauto.
Qed.

Lemma get_plan_cases s a n :
  get_plan s a = Some n ->
  plan_act s !! a = Some n \/ (plan_act s !! a = None /\ plan_inact s !! a = Some n).
Proof. unfold get_plan. destruct (plan_act s !! a); [intros [= ->]; auto|auto]. Qed.

Lemma get_plan_kinv s a n :
  kinv_plan s -> get_plan s a = Some n ->
  pl_id n = a /\ 1 <= a <= plan_count s /\
  ((pl_status n = SActive /\ plan_act s !! a = Some n /\ plan_inact s !! a = None) \/
   (pl_status n = SInactive /\ plan_act s !! a = None /\ plan_inact s !! a = Some n)).
Proof.
  intros [A B D _] H. apply get_plan_cases in H as [H|[H1 H2]].
  - destruct (A _ _ H) as (E1 & E2 & E3). split; [exact E1|]. split; [exact E3|]. left. repeat split; auto. eapply D; eauto.
  - destruct (B _ _ H2) as (E1 & E2 & E3). split; [exact E1|]. split; [exact E3|]. right. auto.
Qed.

Lemma kinv_plan_set s n s' :
  kinv_plan s -> set_plan s n = Ok s' -> 1 <= pl_id n <= plan_count s ->
  (pl_status n = SActive -> plan_inact s !! pl_id n = None) ->
  (pl_status n = SInactive -> plan_act s !! pl_id n = None) -> kinv_plan s'.
Proof.
  intros [A B D C] H Hr H1 H2. unfold set_plan in H. destruct (pl_status n) eqn:E; try discriminate; injection H as <-; split; simpl; auto.
  - apply map_Forall_insert_2; [repeat split; auto; lia|exact A].
  - apply dp_insert_l; auto.
  - apply map_Forall_insert_2; [repeat split; auto; lia|exact B].
  - apply dp_insert_r; auto.
Qed.

Lemma kplan_mono st c c' id p : c <= c' -> kplan st c id p -> kplan st c' id p.
Proof. unfold kplan. intros; intuition lia. Qed.

Lemma kinv_h_plan_create s from du g pr s' : kinv s -> h_plan_create s from du g pr = Ok s' -> kinv s'.
Proof.
  intros Hi H. pose proof (h_plan_create_keeps _ _ _ _ _ _ H) as Hk. kinv_frame Hk Hi. intros _.
  unfold h_plan_create in H. res_inv. destruct (ki_plan _ Hi) as [A B D C].
  match goal with Hs : set_plan _ _ = Ok _ |- _ => unfold set_plan in Hs; simpl in Hs; injection Hs as <- end.
  assert (Hfresh : forall p, plan_act s !! (plan_count s + 1) = Some p -> False).
  { intros p Hp. destruct (A _ _ Hp) as (_ & _ & ?). lia. }
  split; simpl.
  - eapply map_Forall_impl; [exact A|]. intros id p. apply kplan_mono. lia.
  - apply map_Forall_insert_2; [repeat split; simpl; lia|]. eapply map_Forall_impl; [exact B|]. intros id p. apply kplan_mono. lia.
  - apply dp_insert_r; [exact D|]. destruct (plan_act s !! (plan_count s + 1)) eqn:E; [exfalso; eauto|reflexivity].
  - lia.
Qed.

Lemma kinv_h_plan_update_status s from id st s' : kinv s -> h_plan_update_status s from id st = Ok s' -> kinv s'.
Proof.
  intros Hi H. pose proof (h_plan_update_status_keeps _ _ _ _ _ H) as Hk. kinv_frame Hk Hi. intros _.
  unfold h_plan_update_status in H. destruct (get_plan s id) as [p|] eqn:Hg; [|discriminate].
  destruct (get_plan_kinv _ _ _ (ki_plan _ Hi) Hg) as (Ea & Hr & Hcase).
  destruct (ki_plan _ Hi) as [A B D C].
  apply rbind_ok in H as (u & _ & H). apply rbind_ok in H as (s3 & Hset & H). injection H as <-. apply kinv_plan_emit.
  eapply kinv_plan_set; [|exact Hset| | |]; simpl; rewrite ?Ea.
  - destruct Hcase as [(E & E1 & E2)|(E & E1 & E2)]; rewrite E; repeat case_bool_decide; split; simpl;
      try (apply map_Forall_delete); try (apply dp_delete_l); try (apply dp_delete_r); auto; intuition congruence.
  - destruct Hcase as [(E & E1 & E2)|(E & E1 & E2)]; rewrite E; repeat case_bool_decide; simpl; lia.
  - intros ->. destruct Hcase as [(E & E1 & E2)|(E & E1 & E2)]; rewrite E; repeat case_bool_decide; simpl;
      rewrite ?lookup_delete; auto; intuition congruence.
  - intros ->. destruct Hcase as [(E & E1 & E2)|(E & E1 & E2)]; rewrite E; repeat case_bool_decide; simpl;
      rewrite ?lookup_delete; auto; intuition congruence.
Qed.

Lemma kinv_h_plan_link s from id nd s' : kinv s -> h_plan_link s from id nd = Ok s' -> kinv s'.
Proof.
  intros Hi H. pose proof (h_plan_link_keeps _ _ _ _ _ H) as Hk. kinv_frame Hk Hi. intros _.
  unfold h_plan_link in H. res_inv. apply kinv_plan_emit. eapply kinv_plan_frame; [..|apply Hi]; reflexivity.
Qed.
Lemma kinv_h_plan_unlink s from id nd s' : kinv s -> h_plan_unlink s from id nd = Ok s' -> kinv s'.
Proof.
  intros Hi H. pose proof (h_plan_unlink_keeps _ _ _ _ _ H) as Hk. kinv_frame Hk Hi. intros _.
  unfold h_plan_unlink in H. res_inv. apply kinv_plan_emit. eapply kinv_plan_frame; [..|apply Hi]; reflexivity.
Qed.

(** * subscriptions, allocations, payouts *)

Ltac kunf := unfold ksub, kalloc, kpay, ksess, live in *; simpl in *.
(* [map_Forall P (updates of m)] from [H : map_Forall P0 m] where P0 implies P *)
Ltac mf_solve H :=
  repeat first [ apply map_Forall_insert_2; [kunf; try (intuition (auto; lia))|]
               | apply map_Forall_delete ];
  first [ exact H
        | eapply map_Forall_impl; [exact H|]; intros ? ?; kunf; intuition (auto; lia) ].

Lemma kinv_create_sub_for_node s acc nd g h dn s' id :
  kinv_sub s -> create_sub_for_node s acc nd g h dn = Ok (s', id) -> kinv_sub s' /\ id = sub_count s + 1.
Proof.
  intros [A B C D] H. apply create_sub_for_node_effect in H as (n & inact & dep & s1 & _ & _ & _ & H1 & -> & ->).
  destruct (keeps_sub _ _ _ (z_dep_add_keeps _ _ _ _ H1) eq_refl) as (_ & F1 & _ & _ & _ & _ & F6 & F7 & _).
  split; [|reflexivity]. split; simpl; rewrite ?F1, ?F6, ?F7; [mf_solve A| | |lia].
  - destruct (g =? 0); mf_solve B.
  - destruct (h =? 0); mf_solve C.
Qed.

Lemma kinv_create_sub_for_plan s acc pid dn s' id :
  kinv_sub s -> create_sub_for_plan s acc pid dn = Ok (s', id) -> kinv_sub s' /\ id = sub_count s + 1.
Proof.
  intros [A B C D] H.
  apply create_sub_for_plan_effect in H as (p & price & fee & s1 & s2 & _ & _ & _ & _ & _ & _ & H1 & H2 & _ & -> & ->).
  apply z_send_keeps in H1. apply z_send_keeps in H2. assert (K : keeps [GBank] s s2) by keeps_chain.
  destruct (keeps_sub _ _ _ K eq_refl) as (_ & F1 & _ & _ & _ & _ & F6 & F7 & _).
  split; [|reflexivity]. split; simpl; rewrite ?F1, ?F6, ?F7; [mf_solve A|mf_solve B|mf_solve C|lia].
Qed.

Lemma kinv_h_node_subscribe s from nd g h dn s' : kinv s -> h_node_subscribe s from nd g h dn = Ok s' -> kinv s'.
Proof.
  intros Hi H. pose proof (h_node_subscribe_keeps _ _ _ _ _ _ _ H) as Hk. kinv_frame Hk Hi. intros _.
  apply h_node_subscribe_effect in H as (s1 & id & _ & _ & H1 & ->). apply kinv_sub_emit.
  exact (proj1 (kinv_create_sub_for_node _ _ _ _ _ _ _ _ (ki_sub _ Hi) H1)).
Qed.

Lemma kinv_h_plan_subscribe s from pid dn s' : kinv s -> h_plan_subscribe s from pid dn = Ok s' -> kinv s'.
Proof.
  intros Hi H. pose proof (h_plan_subscribe_keeps _ _ _ _ _ H) as Hk. kinv_frame Hk Hi. intros _.
  apply h_plan_subscribe_effect in H as (s1 & id & H1 & ->). apply kinv_sub_emit.
  exact (proj1 (kinv_create_sub_for_plan _ _ _ _ _ _ (ki_sub _ Hi) H1)).
Qed.

Lemma kinv_sub_make_pending s sb :
  kinv_sub s -> subs s !! sb_id sb = Some sb -> kinv_sub (sub_make_pending s sb).
Proof.
  intros [A B C D] Hsb. destruct (A _ _ Hsb) as (E1 & E2 & E3).
  unfold sub_make_pending. apply kinv_sub_emit. split; simpl; auto. mf_solve A.
Qed.

Lemma kinv_detach_payout s sb m s' :
  kinv_sub s -> (forall s'', m = Ok s'' -> kinv_sub s'') -> detach_payout s sb m = Ok s' -> kinv_sub s'.
Proof.
  intros Hk Hm H. apply detach_payout_effect in H. unfold payout_of in H.
  destruct (sb_kind sb) as [? ? h ?|]; [destruct (h =? 0)|]; [subst; exact Hk| |subst; exact Hk].
  destruct (payouts s !! sb_id sb) as [po|] eqn:Hp; [subst|auto].
  destruct Hk as [A B C D]. destruct (C _ _ Hp) as (E1 & E2). split; simpl; auto. mf_solve C.
Qed.

Lemma kinv_session_make_pending s x :
  kinv_sess s -> sessions s !! ss_id x = Some x -> kinv_sess (session_make_pending s x).
Proof.
  intros [A B] Hx. destruct (A _ _ Hx) as (E1 & E2 & E3).
  unfold session_make_pending. apply kinv_sess_emit. split; simpl; auto. mf_solve A.
Qed.

Lemma kinv_sub_pending_hook s id s' : kinv_sess s -> sub_pending_hook s id = Ok s' -> kinv_sess s'.
Proof.
  intros Hk H. unfold sub_pending_hook in H. eapply (rfold_inv kinv_sess); [|exact Hk|exact H].
  intros a sid b Ha Hstep. cbv beta in Hstep. destruct (sessions a !! sid) as [x|] eqn:Hx; [|discriminate].
  destruct (k_ss _ Ha _ _ Hx) as (E1 & _).
  case_bool_decide; injection Hstep as <-; [|exact Ha]. apply kinv_session_make_pending; [exact Ha|]. rewrite E1. exact Hx.
Qed.

Lemma kinv_h_sess_start s from id nd s' : kinv s -> h_sess_start s from id nd = Ok s' -> kinv s'.
Proof.
  intros Hi H. pose proof (h_sess_start_keeps _ _ _ _ _ H) as Hk. kinv_frame Hk Hi. intros _.
  apply h_sess_start_effect in H as (sb & n & latest & _ & _ & _ & _ & _ & _ & _ & _ & ->). destruct (ki_sess _ Hi) as [A B].
  split; simpl; [mf_solve A|lia].
Qed.

Lemma kinv_h_sess_update s from id u d du ok s' : kinv s -> h_sess_update s from id u d du ok = Ok s' -> kinv s'.
Proof.
  intros Hi H. pose proof (h_sess_update_keeps _ _ _ _ _ _ _ _ H) as Hk. kinv_frame Hk Hi. intros _.
  apply h_sess_update_effect in H as (x & Hx & _ & _ & _ & ->). destruct (ki_sess _ Hi) as [A B].
  destruct (A _ _ Hx) as (E1 & E2 & E3). split; simpl; auto. mf_solve A.
Qed.

Lemma kinv_h_sess_end s from id s' : kinv s -> h_sess_end s from id = Ok s' -> kinv s'.
Proof.
  intros Hi H. pose proof (h_sess_end_keeps _ _ _ _ H) as Hk. kinv_frame Hk Hi. intros _.
  apply h_sess_end_effect in H as (x & Hx & _ & _ & ->). destruct (k_ss _ (ki_sess _ Hi) _ _ Hx) as (E1 & _).
  apply kinv_session_make_pending; [apply Hi|rewrite E1; exact Hx].
Qed.

Lemma kinv_h_sub_cancel s from id s' : kinv s -> h_sub_cancel s from id = Ok s' -> kinv s'.
Proof.
  intros Hi H. pose proof (h_sub_cancel_keeps _ _ _ _ H) as Hk.
  apply h_sub_cancel_effect in H as (sb & s1 & Hsb & _ & _ & H1 & H).
  destruct (k_sub _ (ki_sub _ Hi) _ _ Hsb) as (E1 & _). pose proof (sub_pending_hook_keeps _ _ _ H1) as K1.
  kinv_frame Hk Hi; intros _.
  - destruct (keeps_sub _ _ _ K1 eq_refl) as (F0 & F1 & _ & _ & _ & _ & F6 & F7 & _). simpl in F0, F1, F6, F7.
    eapply kinv_detach_payout; [| |exact H]; [|discriminate].
    apply kinv_sub_make_pending; [eapply kinv_sub_frame; [exact F1|exact F6|exact F7|exact F0|apply Hi]|]. rewrite F1, E1. exact Hsb.
  - pose proof (sub_make_pending_keeps s1 sb) as Hmp. apply detach_payout_keeps in H; [|discriminate].
    destruct (keeps_sess _ _ _ (keeps_trans _ _ _ _ Hmp H) eq_refl) as (F0 & F1 & _).
    eapply (kinv_sess_frame s1); [exact F1|exact F0|]. eapply kinv_sub_pending_hook; [|exact H1].
    eapply kinv_sess_frame; [..|apply (ki_sess _ Hi)]; reflexivity.
Qed.

Lemma kinv_h_sub_allocate s from id to b s' : kinv s -> h_sub_allocate s from id to b = Ok s' -> kinv s'.
Proof.
  intros Hi H. pose proof (h_sub_allocate_keeps _ _ _ _ _ _ H) as Hk. kinv_frame Hk Hi. intros _.
  destruct (ki_sub _ Hi) as [A B C D]. apply h_sub_allocate_effect in H as (sb & fal & H). cbv zeta in H.
  destruct H as (Hsb & _ & _ & Hf & _ & _ & _ & _ & _ & ->).
  destruct (A _ _ Hsb) as (E1 & E2 & E3). destruct (B _ _ Hf) as (F1 & F2 & F3). simpl in F1, F2, F3.
  assert (T : kalloc (sub_count s) (id, ta_bytes to) (share_target s id (ta_bytes to))).
  { unfold share_target. destruct (allocs s !! (id, ta_bytes to)) eqn:Ht; simpl; [exact (B _ _ Ht)|repeat split; simpl; lia]. }
  split; simpl; auto. mf_solve B.
Qed.

Lemma kinv_payout_step s e s' : kinv_sub s -> payout_step s e = Ok s' -> kinv_sub s'.
Proof.
  intros [A B C D] H. apply payout_step_effect in H as (po & fee & s2 & s3 & Hp & _ & _ & H2 & H3 & ->).
  destruct (C _ _ Hp) as (E1 & E2). apply z_dep_to_module_keeps in H2. apply z_dep_to_account_keeps in H3.
  destruct (keeps_sub _ _ _ (keeps_trans _ _ _ _ H2 H3) eq_refl) as (F0 & F1 & _ & _ & _ & _ & F6 & F7 & _).
  simpl in F0, F1, F6, F7. split; simpl; rewrite ?F0, ?F1, ?F6, ?F7; auto. mf_solve C.
Qed.

Lemma kinv_sub_begin_block s s' : kinv s -> sub_begin_block s = Ok s' -> kinv s'.
Proof.
  intros Hi H. pose proof (sub_begin_block_keeps _ _ H) as Hk. kinv_frame Hk Hi. intros _.
  unfold sub_begin_block in H. eapply (rfold_inv kinv_sub); [|apply Hi|exact H]. intros; eapply kinv_payout_step; eauto.
Qed.

Lemma kinv_sub_alloc_update s k al al' :
  kinv_sub s -> allocs s !! k = Some al -> al_id al' = al_id al -> al_addr al' = al_addr al ->
  kinv_sub (s <| allocs ::= fun m => <[k := al']> m |>).
Proof.
  intros [A B C D] Hal E1 E2. destruct (B _ _ Hal) as (F1 & F2 & F3).
  split; simpl; auto. apply map_Forall_insert_2; [|exact B]. unfold kalloc. rewrite E1, E2. auto.
Qed.

Lemma kinv_sub_keeps T s s' : keeps T s s' -> touched GSub T = false -> kinv_sub s -> kinv_sub s'.
Proof.
  intros (_ & _ & _ & _ & _ & _ & _ & Ksub & _) Ht. rewrite Ht in Ksub. simpl in Ksub.
  apply kinv_sub_frame; tauto.
Qed.

Lemma kinv_session_inactive_hook s sid acc nd b s' :
  kinv_sub s -> session_inactive_hook s sid acc nd b = Ok s' -> kinv_sub s'.
Proof.
  intros Hk H. apply session_inactive_hook_effect in H as (x & sb & _ & _ & _ & H).
  assert (U : forall al u, allocs s !! (sb_id sb, acc) = Some al -> kinv_sub (usage_state s al u)).
  { intros al u Hal. destruct (k_al _ Hk _ _ Hal) as (F1 & F2 & _). simpl in F1, F2. apply kinv_sub_emit.
    eapply kinv_sub_alloc_update; [exact Hk|rewrite F1, F2; exact Hal|reflexivity..]. }
  destruct (sb_kind sb) as [? g h dep|]; [|destruct H as (al & Hal & ->); auto].
  destruct (negb _); [subst; exact Hk|]. destruct H as (al & Hal & H). cbv zeta in H.
  destruct (g =? 0); [subst; auto|].
  destruct H as (prev & cur & fee & s2 & s3 & _ & _ & _ & _ & _ & _ & H2 & H3 & ->).
  apply z_dep_to_module_keeps in H2. apply z_dep_to_account_keeps in H3. apply kinv_sub_emit.
  eapply kinv_sub_keeps; [exact H3|reflexivity|]. eapply kinv_sub_keeps; [exact H2|reflexivity|auto].
Qed.

Lemma kinv_session_expire_one s e s' : kinv s -> session_expire_one s e = Ok s' -> kinv s'.
Proof.
  intros Hi H. pose proof (session_expire_one_keeps _ _ _ H) as Hk. destruct (ki_sess _ Hi) as [A B].
  apply session_expire_one_effect in H as (x & Hx & H). destruct (A _ _ Hx) as (E1 & E2 & E3).
  kinv_frame Hk Hi; intros _; destruct H as [[_ ->]|(_ & _ & s1 & H1 & ->)].
  - eapply kinv_sub_frame; [..|apply (ki_sub _ Hi)]; reflexivity.
  - eapply kinv_sub_frame; [..|eapply kinv_session_inactive_hook; [|exact H1]; eapply kinv_sub_frame; [..|apply (ki_sub _ Hi)]; reflexivity];
      reflexivity.
  - split; simpl; auto. mf_solve A.
  - destruct (keeps_sess _ _ _ (session_inactive_hook_keeps _ _ _ _ _ _ H1) eq_refl) as (F0 & F1 & _). simpl in F0, F1.
    split; simpl; rewrite ?F0, ?F1; auto. mf_solve A.
Qed.

Lemma kinv_session_end_block s s' : kinv s -> session_end_block s = Ok s' -> kinv s'.
Proof.
  intros Hi H. unfold session_end_block in H. eapply (rfold_inv kinv); [|exact Hi|exact H].
  intros; eapply kinv_session_expire_one; eauto.
Qed.

Lemma kinv_sub_cleanup s sb : kinv_sub s -> kinv_sub (sub_cleanup s sb).
Proof.
  intros Hk. unfold sub_cleanup. destruct (sb_kind sb).
  - destruct Hk as [A B C D]. split; simpl; auto. mf_solve B.
  - apply fold_left_inv.
    + intros x al [A B C D]. split; simpl; auto. mf_solve B.
    + destruct Hk as [A B C D]. split; simpl; auto.
Qed.

Lemma kinv_sub_expire_one s e s' : kinv s -> sub_expire_one s e = Ok s' -> kinv s'.
Proof.
  intros Hi H. pose proof (sub_expire_one_keeps _ _ _ H) as Hk.
  apply sub_expire_one_effect in H as (sb & Hsb & [(Hst & s1 & Hp & H)|(Hst & s1 & Hr & H)]);
    destruct (k_sub _ (ki_sub _ Hi) _ _ Hsb) as (E1 & E2 & E3); kinv_frame Hk Hi; intros _.
  - apply sub_pending_hook_keeps in Hp.
    assert (Hk2 : kinv_sub s1) by (eapply (kinv_sub_frame s); [..|apply (ki_sub _ Hi)]; keeps_solve).
    assert (Es : subs s1 = subs s) by keeps_solve.
    eapply kinv_detach_payout; [| |exact H]; [|discriminate]. apply kinv_sub_make_pending; [exact Hk2|]. rewrite Es, E1. exact Hsb.
  - pose proof (sub_make_pending_keeps s1 sb) as Hmp. apply detach_payout_keeps in H; [|discriminate].
    eapply (kinv_sess_frame s1); [keeps_solve|keeps_solve|].
    eapply kinv_sub_pending_hook; [|exact Hp]. eapply kinv_sess_frame; [..|apply (ki_sess _ Hi)]; reflexivity.
  - apply sub_refund_keeps in Hr.
    assert (Hk1 : kinv_sub s1) by (eapply (kinv_sub_frame s); [..|apply (ki_sub _ Hi)]; keeps_solve).
    pose proof (kinv_sub_cleanup s1 sb Hk1) as [A B C D].
    unfold sub_delete_payout, sub_removed_state in H. repeat case_match; res_inv; try apply kinv_sub_emit; split; simpl; auto.
    all: try mf_solve A. all: try mf_solve B. all: try mf_solve C.
  - apply sub_refund_keeps in Hr. apply sub_delete_payout_keeps in H.
    pose proof (sub_cleanup_keeps s1 sb) as Hc.
    eapply kinv_sess_frame; [..|apply (ki_sess _ Hi)]; keeps_solve.
Qed.

Lemma kinv_sub_end_block s s' : kinv s -> sub_end_block s = Ok s' -> kinv s'.
Proof.
  intros Hi H. unfold sub_end_block in H. eapply (rfold_inv kinv); [|exact Hi|exact H].
  intros; eapply kinv_sub_expire_one; eauto.
Qed.

(** * every operation preserves the invariant *)

Lemma kinv_other T s s' :
  keeps T s s' -> touched GPv T = false -> touched GNode T = false -> touched GPl T = false ->
  touched GSub T = false -> touched GSess T = false -> kinv s -> kinv s'.
Proof. intros Hk T1 T2 T3 T4 T5 Hi. eapply kinv_keeps; eauto; rewrite ?T1, ?T2, ?T3, ?T4, ?T5; discriminate. Qed.

Lemma kinv_handle s m s' : kinv s -> handle s m = Ok s' -> kinv s'.
Proof.
  intros Hi H. destruct m; simpl in H.
  - eapply kinv_h_prov_register; eauto.
  - eapply kinv_h_prov_update; eauto.
  - eapply kinv_h_node_register; eauto.
  - eapply kinv_h_node_update_details; eauto.
  - eapply kinv_h_node_update_status; eauto.
  - eapply kinv_h_node_subscribe; eauto.
  - eapply kinv_h_plan_create; eauto.
  - eapply kinv_h_plan_update_status; eauto.
  - eapply kinv_h_plan_link; eauto.
  - eapply kinv_h_plan_unlink; eauto.
  - eapply kinv_h_plan_subscribe; eauto.
  - eapply kinv_h_sub_cancel; eauto.
  - eapply kinv_h_sub_allocate; eauto.
  - eapply kinv_h_sess_start; eauto.
  - eapply kinv_h_sess_update; eauto.
  - eapply kinv_h_sess_end; eauto.
  - apply h_swap_keeps in H. eapply kinv_other; eauto.
Qed.

Lemma kinv_updates s s' : keeps [GPar; GNow; GMint] s s' -> kinv s -> kinv s'.
Proof. intros Hk. eapply kinv_other; eauto. Qed.

Theorem kinv_step s o s' : kinv s -> step s o = OOk s' -> kinv s'.
Proof.
  intros Hi H. apply step_inv in H. assert (Hc : kinv (clear_events s)) by (eapply (kinv_updates s); [keeps_conv|exact Hi]).
  destruct o.
  - apply begin_block_effect in H as (s1 & Hm & H). eapply kinv_sub_begin_block; [|exact H].
    apply mint_begin_block_keeps in Hm. eapply (kinv_other [GMint; GNow] s); [| | | | | |exact Hi]; [keeps_chain|..]; reflexivity.
  - destruct H as [_ H]. eapply kinv_handle; [exact Hc|exact H].
  - destruct H as [_ ->]. apply (fold_left_inv kinv); [|exact Hc].
    intros x c Hx. pose proof (apply_pchange_keeps x c). eapply kinv_other; eauto.
  - destruct H as (se & H & ->). apply end_block_effect in H as (s1 & s2 & H1 & H2 & H3).
    eapply (kinv_updates se); [keeps_conv|].
    eapply kinv_sub_end_block; [|exact H3]. eapply kinv_session_end_block; [|exact H2].
    eapply kinv_node_end_block; [|exact H1]. exact Hc.
Qed.

Lemma kinv_clear s : kinv s -> kinv (clear_events s).
Proof.
  apply kinv_updates. keeps_conv.
Qed.

Theorem kinv_run ops : forall s i s', kinv s -> run_from s ops i = RunOk s' -> kinv s'.
Proof.
  intros s i s'. apply run_from_inv; [intros ? ? ?; apply kinv_step|apply kinv_clear].
Qed.

Lemma kinv_init g : kinv (init g).
Proof.
  assert (H0 : kinv (empty_state (g_cfg g) (g_params g))).
  { split; split; try (cbv [empty_state plan_count sub_count sess_count]; lia); simpl; first [apply dp_empty | apply map_Forall_empty]. }
  eapply (kinv_other _ _ _ (init_keeps g)); [reflexivity..|exact H0].
Qed.
