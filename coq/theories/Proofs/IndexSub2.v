(* idx_sub (InvDefs.v) is preserved by quota sharing, hourly payouts, settlement and expiry. *)
From Hub Require Import Base.Prelude Base.Arith Model.Types Model.Keeper Model.Handlers Model.Hooks Model.Step.
From Hub Require Import Proofs.Tactics Proofs.Effects Proofs.Frames Proofs.KeysInv Proofs.ArithThm Proofs.IndexSess Proofs.InvDefs Proofs.Quota Proofs.IndexSub Proofs.Listing.

(** * sharing quota *)

(* updating the grant / usage of existing allocations changes nothing idx_sub talks about *)
Lemma idx_sub_alloc_update s s' :
  subs s' = subs s -> payouts s' = payouts s -> sub_q s' = sub_q s -> sub_acc s' = sub_acc s ->
  sub_node s' = sub_node s -> sub_plan s' = sub_plan s -> pay_q s' = pay_q s -> pay_acc s' = pay_acc s ->
  pay_node s' = pay_node s -> pay_acc_node s' = pay_acc_node s ->
  (forall k, is_Some (allocs s' !! k) <-> is_Some (allocs s !! k)) ->
  idx_sub s -> idx_sub s'.
Proof.
  intros E1 E3 E4 E5 E6 E7 E8 E9 E10 E11 Hdom Hix.
  split; rewrite ?E1, ?E3, ?E4, ?E5, ?E6, ?E7, ?E8, ?E9, ?E10, ?E11; intros.
  - apply (ix_subq _ Hix).
  - apply (ix_subnode _ Hix).
  - apply (ix_subplan _ Hix).
  - rewrite (ix_subacc _ Hix). setoid_rewrite Hdom. reflexivity.
  - apply (ix_payacc _ Hix).
  - apply (ix_paynode _ Hix).
  - apply (ix_payaccnode _ Hix).
  - apply (ix_payq _ Hix).
  - eapply (st_kind _ Hix); eauto.
  - assert (Hs : is_Some (allocs s !! (id, a))) by (apply Hdom; eauto). destruct Hs as [al0 Hal0].
    apply (st_alloc_sub _ Hix _ _ _ Hal0).
  - apply Hdom. eapply (st_sub_alloc _ Hix); eauto.
  - apply (st_pay_sub _ Hix _ _ H).
  - eapply (st_sub_pay _ Hix); eauto.
Qed.

Lemma idx_h_sub_allocate s from id to b s' : kinv s -> idx_sub s -> h_sub_allocate s from id to b = Ok s' -> idx_sub s'.
Proof.
  intros Hi Hix H. unfold h_sub_allocate in H. destruct (subs s !! id) as [sb|] eqn:Hsb; [|discriminate].
  apply rbind_ok in H as (u1 & Hkind & H). apply ensure_ok in Hkind.
  destruct (sb_kind sb) as [|pid dn] eqn:Ek; [discriminate|].
  apply rbind_ok in H as (u2 & Hown & H). apply ensure_ok, bool_decide_eq_true in Hown.
  destruct (allocs s !! (id, ta_bytes from)) as [fal|] eqn:Hfal; [|discriminate].
  apply rbind_ok in H as (u3 & Hne & H). apply ensure_ok, negb_true_iff, bool_decide_eq_false in Hne.
  remember (ta_bytes to) as ta eqn:Eta. remember (ta_bytes from) as fa eqn:Efa. clear Eta Efa.
  destruct (allocs s !! (id, ta)) as [tal|] eqn:Htal.
  - (* receiver already holds an allocation *)
    cbv beta iota zeta in H.
    apply rbind_ok in H as (granted & _ & H). apply rbind_ok in H as (util & _ & H). apply rbind_ok in H as (avail & _ & H).
    apply rbind_ok in H as (u4 & _ & H). apply rbind_ok in H as (fg & _ & H). apply rbind_ok in H as (u5 & _ & H).
    apply rbind_ok in H as (u6 & _ & H). injection H as <-.
    apply (idx_sub_alloc_update s); try reflexivity; [|exact Hix]. simpl. intros k.
    destruct (decide (k = (id, ta))) as [->|N1]; [rewrite lookup_insert, Htal; split; eauto|rewrite lookup_insert_ne by congruence].
    destruct (decide (k = (id, fa))) as [->|N2]; [rewrite lookup_insert, Hfal; split; eauto|rewrite lookup_insert_ne by congruence]. reflexivity.
  - (* a new allocation for the receiver *)
    cbv beta iota zeta in H.
    apply rbind_ok in H as (granted & _ & H). apply rbind_ok in H as (util & _ & H). apply rbind_ok in H as (avail & _ & H).
    apply rbind_ok in H as (u4 & _ & H). apply rbind_ok in H as (fg & _ & H). apply rbind_ok in H as (u5 & _ & H).
    apply rbind_ok in H as (u6 & _ & H). injection H as <-.
    apply idx_sub_emit.
    split; simpl; intros.
    + apply (ix_subq _ Hix).
    + apply (ix_subnode _ Hix).
    + apply (ix_subplan _ Hix).
    + ix_sets. rewrite (ix_subacc _ Hix). clear Hix. lks; rewrite ?Hfal, ?Htal, ?Hsb; unfold is_Some; timeout 30 naive_solver.
    + apply (ix_payacc _ Hix).
    + apply (ix_paynode _ Hix).
    + apply (ix_payaccnode _ Hix).
    + apply (ix_payq _ Hix).
    + eapply (st_kind _ Hix); eauto.
    + revert H. lks.
      * intros _. exists sb. split; [exact Hsb|]. unfold hourly, metered. rewrite Ek. split; [reflexivity|discriminate].
      * intros _. exists sb. split; [exact Hsb|]. unfold hourly, metered. rewrite Ek. split; [reflexivity|discriminate].
      * apply (st_alloc_sub _ Hix).
    + destruct (st_sub_alloc _ Hix _ _ H H0) as [al0 Hal0]. lks; eauto.
    + apply (st_pay_sub _ Hix _ _ H).
    + eapply (st_sub_pay _ Hix); eauto.
Qed.

(** * hourly payouts *)

Lemma payout_step_spec s e s' po :
  payouts s !! e.2 = Some po -> payout_step s e = Ok s' ->
  let h := po_hours po - 1 in
  let nx := if h =? 0 then tzero else po_next_at po + HOUR in
  subs s' = subs s /\ allocs s' = allocs s /\ sub_q s' = sub_q s /\ sub_acc s' = sub_acc s /\ sub_node s' = sub_node s /\
  sub_plan s' = sub_plan s /\ pay_acc s' = pay_acc s /\ pay_node s' = pay_node s /\ pay_acc_node s' = pay_acc_node s /\
  payouts s' = <[po_id po := po <| po_hours := h |> <| po_next_at := nx |>]> (payouts s) /\
  pay_q s' = if 0 <? h then (pay_q s ∖ {[ (po_next_at po, po_id po) ]}) ∪ {[ (nx, po_id po) ]}
             else pay_q s ∖ {[ (po_next_at po, po_id po) ]}.
Proof.
  intros Hpo H. apply payout_step_effect in H as (po' & fee & s2 & s3 & Hpo' & _ & _ & H2 & H3 & ->).
  rewrite Hpo in Hpo'. injection Hpo' as <-.
  apply z_dep_to_module_keeps in H2. apply z_dep_to_account_keeps in H3.
  destruct (keeps_sub _ _ _ (keeps_trans _ _ _ _ H2 H3) eq_refl) as (_ & F1 & F2 & F3 & F4 & F5 & F6 & F7 & F8 & F9 & F10 & F11).
  cbv zeta. simpl in *. rewrite F1, F2, F3, F4, F5, F6, F7, F8, F9, F10, F11.
  destruct (0 <? po_hours po - 1); repeat split.
Qed.

Lemma idx_payout_step s e s' : kinv_sub s -> idx_sub s -> e ∈ pay_q s -> payout_step s e = Ok s' -> idx_sub s'.
Proof.
  intros Hk Hix He H. destruct e as [t id].
  destruct (proj1 (ix_payq _ Hix t id) He) as (po & sb & Hpo & Hnx & Hh & Hsb & Hact).
  destruct (k_po _ Hk _ _ Hpo) as [Eid _].
  destruct (payout_step_spec s (t, id) s' po Hpo H) as (E1 & E2 & E4 & E5 & E6 & E7 & E9 & E10 & E11 & E3 & E8).
  cbv zeta in E3, E8. rewrite Eid in E3, E8. clear H.
  split; rewrite ?E1, ?E2, ?E3, ?E4, ?E5, ?E6, ?E7, ?E9, ?E10, ?E11; intros.
  - apply (ix_subq _ Hix).
  - apply (ix_subnode _ Hix).
  - apply (ix_subplan _ Hix).
  - apply (ix_subacc _ Hix).
  - rewrite (ix_payacc _ Hix). clear Hix. lks; rewrite ?Hpo; timeout 30 naive_solver.
  - rewrite (ix_paynode _ Hix). clear Hix. lks; rewrite ?Hpo; timeout 30 naive_solver.
  - rewrite (ix_payaccnode _ Hix). clear Hix. lks; rewrite ?Hpo; timeout 30 naive_solver.
  - rewrite E8. destruct (0 <? po_hours po - 1) eqn:Eh.
    + ix_sets. rewrite (ix_payq _ Hix). clear Hix. apply Z.ltb_lt in Eh.
      destruct (po_hours po - 1 =? 0) eqn:E0; [lia|].
      lks; rewrite ?Hpo, ?Hsb; simpl; timeout 30 naive_solver lia.
    + ix_sets. rewrite (ix_payq _ Hix). clear Hix. apply Z.ltb_ge in Eh.
      lks; rewrite ?Hpo, ?Hsb; simpl; timeout 30 naive_solver lia.
  - eapply (st_kind _ Hix); eauto.
  - apply (st_alloc_sub _ Hix _ _ _ H).
  - eapply (st_sub_alloc _ Hix); eauto.
  - match goal with H : <[_ := _]> _ !! _ = Some ?p |- _ => rename p into pnew end.
    assert (Hold : exists pold, payouts s !! id0 = Some pold /\ po_node pnew = po_node pold /\ po_addr pnew = po_addr pold /\
                                (0 <= po_hours pold -> 0 <= po_hours pnew)).
    { apply lookup_insert_Some in H as [[<- <-]|[? H]]; [exists po; simpl; repeat split; auto; lia|eexists; split; eauto]. }
    destruct Hold as (pold & Hpo0 & N1 & N2 & N3). rewrite N1, N2.
    destruct (st_pay_sub _ Hix _ _ Hpo0) as (Hh' & R). split; [auto|exact R].
  - destruct (st_sub_pay _ Hix _ _ H H0) as [pold Hpold]. lks; eauto.
Qed.

(** * settlement *)

Lemma session_inactive_hook_subfields s sid acc nd b s' :
  session_inactive_hook s sid acc nd b = Ok s' ->
  subs s' = subs s /\ payouts s' = payouts s /\ sub_q s' = sub_q s /\ sub_acc s' = sub_acc s /\ sub_node s' = sub_node s /\
  sub_plan s' = sub_plan s /\ pay_q s' = pay_q s /\ pay_acc s' = pay_acc s /\ pay_node s' = pay_node s /\
  pay_acc_node s' = pay_acc_node s /\ sub_count s' = sub_count s.
Proof.
  intros H. apply session_inactive_hook_effect in H as (x & sb & _ & _ & _ & H).
  (* the usage update writes [allocs] only, the transfers that may follow leave the group alone *)
  assert (U : forall al u, keeps [GBank; GDep] (usage_state s al u) s' -> subs s' = subs s /\ payouts s' = payouts s /\
            sub_q s' = sub_q s /\ sub_acc s' = sub_acc s /\ sub_node s' = sub_node s /\ sub_plan s' = sub_plan s /\ pay_q s' = pay_q s /\
            pay_acc s' = pay_acc s /\ pay_node s' = pay_node s /\ pay_acc_node s' = pay_acc_node s /\ sub_count s' = sub_count s).
  { intros al u K. destruct (keeps_sub _ _ _ K eq_refl) as (F0 & F1 & F2 & F3 & F4 & F5 & _ & F7 & F8 & F9 & F10 & F11). auto 12. }
  destruct (sb_kind sb) as [? g h dep|]; [|destruct H as (al & _ & ->); eapply U, keeps_refl].
  destruct (negb _); [subst; repeat split|]. destruct H as (al & _ & H). cbv zeta in H.
  destruct (g =? 0); [subst; eapply U, keeps_refl|].
  destruct H as (prev & cur & fee & s2 & s3 & _ & _ & _ & _ & _ & _ & H2 & H3 & ->).
  apply z_dep_to_module_keeps in H2. apply z_dep_to_account_keeps in H3. eapply U. keeps_chain.
Qed.

Lemma idx_session_inactive_hook s sid acc nd b s' :
  kinv_sub s -> idx_sub s -> session_inactive_hook s sid acc nd b = Ok s' -> idx_sub s'.
Proof.
  intros Hk Hix H. destruct (session_inactive_hook_subfields _ _ _ _ _ _ H) as (E1 & E3 & E4 & E5 & E6 & E7 & E8 & E9 & E10 & E11 & _).
  apply (idx_sub_alloc_update s); try assumption.
  destruct (session_inactive_hook_allocs _ _ _ _ _ _ Hk H) as [->|(x & al & u' & _ & Hal & -> & _)]; [reflexivity|].
  intros k. destruct (decide (k = (ss_sub x, acc))) as [->|Hne]; [rewrite lookup_insert, Hal; split; eauto|rewrite lookup_insert_ne by congruence; reflexivity].
Qed.

Lemma idx_sub_session_expire_one s e s' : kinv s -> idx_sub s -> session_expire_one s e = Ok s' -> idx_sub s'.
Proof.
  intros Hi Hix H. apply session_expire_one_effect in H as (x & _ & [[_ ->]|(_ & _ & s1 & Hh & ->)]).
  - eapply idx_sub_frame; [..|exact Hix]; reflexivity.
  - eapply (idx_sub_frame s1); try reflexivity.
    eapply idx_session_inactive_hook; [| |exact Hh]; [eapply kinv_sub_frame; [..|apply (ki_sub _ Hi)]|eapply idx_sub_frame; [..|exact Hix]]; reflexivity.
Qed.

(** * removal of a subscription *)

Definition cleanup_step (id : Z) (s : state) (al : allocation) : state :=
  s <| allocs ::= fun m => delete (id, al_addr al) m |> <| sub_acc ::= fun i => i ∖ {[ (al_addr al, id) ]} |>.

Lemma cleanup_fold id l : forall s0,
  let s1 := fold_left (cleanup_step id) l s0 in
  (forall k, allocs s1 !! k = if bool_decide (k.1 = id /\ k.2 ∈ map al_addr l) then None else allocs s0 !! k) /\
  (forall x, x ∈ sub_acc s1 <-> x ∈ sub_acc s0 /\ ~ (x.2 = id /\ x.1 ∈ map al_addr l)) /\
  subs s1 = subs s0 /\ payouts s1 = payouts s0 /\ sub_q s1 = sub_q s0 /\ sub_node s1 = sub_node s0 /\ sub_plan s1 = sub_plan s0 /\
  pay_q s1 = pay_q s0 /\ pay_acc s1 = pay_acc s0 /\ pay_node s1 = pay_node s0 /\ pay_acc_node s1 = pay_acc_node s0 /\
  sub_count s1 = sub_count s0.
Proof.
  induction l as [|al l IH]; intros s0; cbn [fold_left map].
  - split; [intros k; rewrite bool_decide_eq_false_2; [reflexivity|intros [_ Hin]; inversion Hin]|].
    split; [intros x; split; [intros Hx; split; [exact Hx|intros [_ Hin]; inversion Hin]|tauto]|]. repeat split; reflexivity.
  - destruct (IH (cleanup_step id s0 al)) as (A & B & C). cbv zeta. split; [|split; [|exact C]].
    + intros k. rewrite A. unfold cleanup_step; simpl.
      destruct (decide (k = (id, al_addr al))) as [->|Hne].
      * rewrite lookup_delete. simpl. rewrite (bool_decide_eq_true_2 (id = id /\ al_addr al ∈ al_addr al :: map al_addr l)) by (split; [reflexivity|left]).
        destruct (bool_decide _); reflexivity.
      * rewrite lookup_delete_ne by congruence.
        destruct k as [k1 k2]; simpl in *.
        repeat case_bool_decide; try reflexivity; exfalso.
        -- match goal with Hn : ~ (_ /\ _ ∈ _ :: _) |- _ => apply Hn end. destruct H as [-> Hin]. split; [reflexivity|right; exact Hin].
        -- destruct H0 as [-> Hin]. apply elem_of_cons in Hin as [->|Hin]; [congruence|]. apply H. split; [reflexivity|exact Hin].
    + intros x. rewrite B. unfold cleanup_step; simpl. rewrite elem_of_difference, elem_of_singleton.
      destruct x as [x1 x2]; simpl. rewrite elem_of_cons. split.
      * intros [[Hx Hne] Hn]. split; [exact Hx|]. intros [-> [->|Hin]]; [apply Hne; reflexivity|apply Hn; split; [reflexivity|exact Hin]].
      * intros [Hx Hn]. split; [split; [exact Hx|]|].
        -- intros [= -> ->]. apply Hn. split; [reflexivity|left; reflexivity].
        -- intros [-> Hin]. apply Hn. split; [reflexivity|right; exact Hin].
Qed.

Lemma sub_refund_subfields s sb s' :
  sub_refund s sb = Ok s' ->
  sub_count s' = sub_count s /\ subs s' = subs s /\ sub_q s' = sub_q s /\ sub_acc s' = sub_acc s /\
  sub_node s' = sub_node s /\ sub_plan s' = sub_plan s /\ allocs s' = allocs s /\
  payouts s' = payouts s /\ pay_q s' = pay_q s /\ pay_acc s' = pay_acc s /\
  pay_node s' = pay_node s /\ pay_acc_node s' = pay_acc_node s.
Proof. intros H. apply sub_refund_keeps in H. exact (keeps_sub _ _ _ H eq_refl). Qed.

(* dropping the entries of identifier [id] from an index whose entries of [id] all carry the key [k0] / has none *)
Lemma drop_id {K} `{Countable K} (S : gset (K * Z)) k0 id :
  (forall k, (k, id) ∈ S -> k = k0) -> forall x, x ∈ S ∖ {[ (k0, id) ]} <-> x ∈ S /\ x.2 <> id.
Proof.
  intros Hk [k i]. simpl. rewrite elem_of_difference, elem_of_singleton.
  split; intros [Hx Hne]; (split; [exact Hx|]); [intros ->; apply Hne; f_equal; apply Hk; exact Hx|congruence].
Qed.
Lemma no_id {K} `{Countable K} (S : gset (K * Z)) id : (forall k, (k, id) ∉ S) -> forall x, x ∈ S <-> x ∈ S /\ x.2 <> id.
Proof. intros Hk [k i]. simpl. split; [intros Hx; split; [exact Hx|intros ->; exact (Hk _ Hx)]|tauto]. Qed.

(* the uniform effect of removing subscription [id], whatever its kind *)
Definition removed_sub (id : Z) (iat : time) (s s' : state) : Prop :=
  subs s' = delete id (subs s) /\ payouts s' = delete id (payouts s) /\
  (forall k, allocs s' !! k = if bool_decide (k.1 = id) then None else allocs s !! k) /\
  sub_q s' = sub_q s ∖ {[ (iat, id) ]} /\
  (forall x, x ∈ sub_acc s' <-> x ∈ sub_acc s /\ x.2 <> id) /\
  (forall x, x ∈ sub_node s' <-> x ∈ sub_node s /\ x.2 <> id) /\
  (forall x, x ∈ sub_plan s' <-> x ∈ sub_plan s /\ x.2 <> id) /\
  (forall x, x ∈ pay_acc s' <-> x ∈ pay_acc s /\ x.2 <> id) /\
  (forall x, x ∈ pay_node s' <-> x ∈ pay_node s /\ x.2 <> id) /\
  pay_q s' = pay_q s /\ pay_acc_node s' = pay_acc_node s /\ sub_count s' = sub_count s.

Lemma sub_remove_spec s e s' sb :
  kinv_sub s -> idx_sub s -> subs s !! e.2 = Some sb -> sb_status sb <> SActive -> sub_expire_one s e = Ok s' ->
  removed_sub e.2 (sb_inactive_at sb) s s'.
Proof.
  intros Hk Hix Hsb Hst H. unfold sub_expire_one in H. rewrite Hsb in H. rewrite bool_decide_eq_false_2 in H by exact Hst.
  destruct (k_sub _ Hk _ _ Hsb) as (Eid & _ & _). destruct e as [t id]. simpl in *. subst id.
  apply rbind_ok in H as (s1 & Hr & H).
  destruct (sub_refund_subfields _ _ _ Hr) as (R0 & R1 & R2 & R3 & R4 & R5 & R6 & R7 & R8 & R9 & R10 & R11). simpl in *.
  pose proof (st_kind _ Hix _ _ Hsb) as Hkind.
  unfold sub_delete_payout, sub_cleanup in H.
  pose proof (no_payout _ _ _ Hix Hsb) as Hnopay. unfold hourly in Hnopay.
  assert (Hpay0 : payouts s !! sb_id sb = None -> (forall a, (a, sb_id sb) ∉ pay_acc s) /\ (forall a, (a, sb_id sb) ∉ pay_node s)).
  { intros Hno. split; intros a Ha; [apply (ix_payacc _ Hix) in Ha|apply (ix_paynode _ Hix) in Ha];
      destruct Ha as (po & Hpo & _); congruence. }
  destruct (sb_kind sb) as [nd g h dep|pid dn] eqn:Ek.
  - (* pay-as-you-go *)
    assert (Hal : forall a, a <> sb_addr sb -> allocs s !! (sb_id sb, a) = None).
    { intros a Ha. destruct (allocs s !! (sb_id sb, a)) as [al|] eqn:E; [|reflexivity].
      destruct (st_alloc_sub _ Hix _ _ _ E) as (sb0 & Hs0 & Hh0 & Hm0). rewrite Hsb in Hs0. injection Hs0 as <-.
      unfold hourly, metered in *. rewrite Ek in *. destruct Hkind as [[[-> Hh]|[Hg ->]] _].
      - destruct (h =? 0) eqn:E0; [lia|discriminate].
      - destruct (g =? 0) eqn:E0; [lia|]. exfalso. apply Ha. apply Hm0. reflexivity. }
    assert (Hacc : forall a, (a, sb_id sb) ∈ sub_acc s -> a = sb_addr sb).
    { intros a Ha. apply (ix_subacc _ Hix) in Ha as (sb0 & Hs0 & [<-|[al Hal0]]).
      - rewrite Hsb in Hs0. injection Hs0 as <-. reflexivity.
      - destruct (decide (a = sb_addr sb)) as [->|Hne]; [reflexivity|]. rewrite (Hal a Hne) in Hal0. discriminate. }
    assert (Hnode : forall n, (n, sb_id sb) ∈ sub_node s -> n = nd).
    { intros n Hn. apply (ix_subnode _ Hix) in Hn as (sb0 & g0 & h0 & d0 & Hs0 & Hk0). rewrite Hsb in Hs0. injection Hs0 as <-. congruence. }
    assert (Hplan : forall p, (p, sb_id sb) ∉ sub_plan s).
    { intros p Hp. apply (ix_subplan _ Hix) in Hp as (sb0 & d0 & Hs0 & Hk0). rewrite Hsb in Hs0. injection Hs0 as <-. congruence. }
    destruct (h =? 0) eqn:Eh.
    + (* per gigabyte: no payout *)
      pose proof (Hnopay eq_refl) as Hno. destruct (Hpay0 Hno) as [Hpa Hpn].
      injection H as <-. unfold removed_sub. simpl. rewrite ?R0, ?R1, ?R2, ?R3, ?R4, ?R5, ?R6, ?R7, ?R8, ?R9, ?R10, ?R11.
      split; [reflexivity|]. split; [rewrite delete_notin by exact Hno; reflexivity|].
      split; [intros [k1 k2]; simpl; case_bool_decide as Hc;
              [subst k1; destruct (decide (k2 = sb_addr sb)) as [->|Hne]; [apply lookup_delete|rewrite lookup_delete_ne by congruence; apply Hal; exact Hne]
              |rewrite lookup_delete_ne by congruence; reflexivity]|].
      split; [reflexivity|].
      split; [apply drop_id, Hacc|].
      split; [apply drop_id, Hnode|].
      split; [apply no_id, Hplan|].
      split; [apply no_id, Hpa|].
      split; [apply no_id, Hpn|].
      repeat split; reflexivity.
    + (* per hour: the payout goes too *)
      simpl in H. rewrite R7 in H. destruct (payouts s !! sb_id sb) as [po|] eqn:Hpo; [|discriminate].
      destruct (k_po _ Hk _ _ Hpo) as [Epo _].
      assert (Hpa : forall a, (a, sb_id sb) ∈ pay_acc s -> a = po_addr po).
      { intros a Ha. apply (ix_payacc _ Hix) in Ha as (po0 & Hpo0 & <-). congruence. }
      assert (Hpn : forall a, (a, sb_id sb) ∈ pay_node s -> a = po_node po).
      { intros a Ha. apply (ix_paynode _ Hix) in Ha as (po0 & Hpo0 & <-). congruence. }
      injection H as <-. unfold removed_sub. simpl. rewrite ?R0, ?R1, ?R2, ?R3, ?R4, ?R5, ?R6, ?R7, ?R8, ?R9, ?R10, ?R11, ?Epo.
      split; [reflexivity|]. split; [reflexivity|].
      split; [intros [k1 k2]; simpl; case_bool_decide as Hc;
              [subst k1; destruct (decide (k2 = sb_addr sb)) as [->|Hne]; [apply lookup_delete|rewrite lookup_delete_ne by congruence; apply Hal; exact Hne]
              |rewrite lookup_delete_ne by congruence; reflexivity]|].
      split; [reflexivity|].
      split; [apply drop_id, Hacc|].
      split; [apply drop_id, Hnode|].
      split; [apply no_id, Hplan|].
      split; [apply drop_id, Hpa|].
      split; [apply drop_id, Hpn|].
      repeat split; reflexivity.
  - (* plan subscription: every allocation of it goes *)
    injection H as <-.
    match goal with |- context [fold_left ?f ?l ?s0] => change f with (cleanup_step (sb_id sb)); 
      destruct (cleanup_fold (sb_id sb) l s0) as (CA & CB & C1 & C2 & C3 & C4 & C5 & C6 & C7 & C8 & C9 & C10) end.
    cbv zeta in CA, CB, C1, C2, C3, C4, C5, C6, C7, C8, C9, C10. simpl in CA, CB, C1, C2, C3, C4, C5, C6, C7, C8, C9, C10.
    assert (El : allocs_for s1 (sb_id sb) = allocs_for s (sb_id sb)) by (unfold allocs_for; rewrite R6; reflexivity).
    rewrite El in *.
    assert (Hmap : forall a, a ∈ map al_addr (allocs_for s (sb_id sb)) <-> is_Some (allocs s !! (sb_id sb, a))).
    { intros a. rewrite elem_of_list_fmap. split.
      - intros (al & -> & Hin). apply (Listing.allocs_for_key _ _ _ Hk) in Hin as [_ Hin]. eauto.
      - intros [al Hal]. exists al. destruct (k_al _ Hk _ _ Hal) as (_ & Ea & _). simpl in Ea. split; [congruence|].
        apply Listing.elem_of_allocs_for. eauto. }
    pose proof (Hnopay eq_refl) as Hno. destruct (Hpay0 Hno) as [Hpa Hpn].
    assert (Hnode : forall n, (n, sb_id sb) ∉ sub_node s).
    { intros n Hn. apply (ix_subnode _ Hix) in Hn as (sb0 & g0 & h0 & d0 & Hs0 & Hk0). rewrite Hsb in Hs0. injection Hs0 as <-. congruence. }
    assert (Hplan : forall p, (p, sb_id sb) ∈ sub_plan s -> p = pid).
    { intros p Hp. apply (ix_subplan _ Hix) in Hp as (sb0 & d0 & Hs0 & Hk0). rewrite Hsb in Hs0. injection Hs0 as <-. congruence. }
    assert (Hown : is_Some (allocs s !! (sb_id sb, sb_addr sb))).
    { eapply (st_sub_alloc _ Hix); [exact Hsb|]. unfold hourly. rewrite Ek. reflexivity. }
    unfold removed_sub. simpl. rewrite ?C1, ?C2, ?C3, ?C4, ?C5, ?C6, ?C7, ?C8, ?C9, ?C10. simpl.
    rewrite ?R0, ?R1, ?R2, ?R3, ?R4, ?R5, ?R6, ?R7, ?R8, ?R9, ?R10, ?R11.
    split; [reflexivity|]. split; [rewrite delete_notin by exact Hno; reflexivity|].
    split.
    { intros [k1 k2]. rewrite CA. simpl. rewrite R6. repeat case_bool_decide; try reflexivity.
      - exfalso. tauto.
      - subst k1. destruct (allocs s !! (sb_id sb, k2)) eqn:E; [|reflexivity]. exfalso.
        match goal with Hn : ~ (_ /\ _) |- _ => apply Hn end. split; [reflexivity|]. apply Hmap. eauto. }
    split; [reflexivity|].
    split.
    { intros [x1 x2]. rewrite CB. simpl. rewrite R3. split.
      - intros [Hx Hn]. split; [exact Hx|]. intros ->. apply Hn. split; [reflexivity|]. apply Hmap.
        apply (ix_subacc _ Hix) in Hx as (sb0 & Hs0 & [<-|Hsome]); [|exact Hsome].
        rewrite Hsb in Hs0. injection Hs0 as <-. exact Hown.
      - intros [Hx Hne]. split; [exact Hx|]. intros [-> _]. congruence. }
    split; [apply no_id, Hnode|].
    split; [apply drop_id, Hplan|].
    split; [apply no_id, Hpa|].
    split; [apply no_id, Hpn|].
    repeat split; reflexivity.
Qed.

Lemma idx_removed id s s' sb :
  idx_sub s -> subs s !! id = Some sb -> sb_status sb <> SActive -> removed_sub id (sb_inactive_at sb) s s' -> idx_sub s'.
Proof.
  intros Hix Hsb Hst (E1 & E3 & EA & E4 & E5 & E6 & E7 & E9 & E10 & E8 & E11 & _).
  assert (EA' : forall i a, i <> id -> allocs s' !! (i, a) = allocs s !! (i, a)).
  { intros i a Hne. rewrite EA. simpl. rewrite bool_decide_eq_false_2 by exact Hne. reflexivity. }
  assert (EA0 : forall a, allocs s' !! (id, a) = None).
  { intros a. rewrite EA. simpl. rewrite bool_decide_eq_true_2 by reflexivity. reflexivity. }
  split; rewrite ?E1, ?E3, ?E4, ?E8, ?E11; intros.
  - ix_sets. rewrite (ix_subq _ Hix). clear Hix EA EA' EA0 E5 E6 E7 E9 E10. lks; rewrite ?Hsb; timeout 30 naive_solver.
  - rewrite E6. simpl. rewrite (ix_subnode _ Hix). clear Hix EA EA' EA0 E5 E6 E7 E9 E10. lks; rewrite ?Hsb; timeout 30 naive_solver.
  - rewrite E7. simpl. rewrite (ix_subplan _ Hix). clear Hix EA EA' EA0 E5 E6 E7 E9 E10. lks; rewrite ?Hsb; timeout 30 naive_solver.
  - rewrite E5. simpl. rewrite (ix_subacc _ Hix). clear Hix EA E5 E6 E7 E9 E10.
    destruct (decide (id0 = id)) as [->|Hne]; [rewrite lookup_delete; timeout 30 naive_solver|].
    rewrite lookup_delete_ne by congruence. rewrite (EA' _ _ Hne). timeout 30 naive_solver.
  - rewrite E9. simpl. rewrite (ix_payacc _ Hix). clear Hix EA EA' EA0 E5 E6 E7 E9 E10. lks; timeout 30 naive_solver.
  - rewrite E10. simpl. rewrite (ix_paynode _ Hix). clear Hix EA EA' EA0 E5 E6 E7 E9 E10. lks; timeout 30 naive_solver.
  - rewrite (ix_payaccnode _ Hix). clear Hix EA EA' EA0 E5 E6 E7 E9 E10. lks; rewrite ?Hsb; timeout 30 naive_solver.
  - rewrite (ix_payq _ Hix). clear Hix EA EA' EA0 E5 E6 E7 E9 E10. lks; rewrite ?Hsb; timeout 30 naive_solver.
  - apply lookup_delete_Some in H as [_ H]. eapply (st_kind _ Hix); eauto.
  - destruct (decide (id0 = id)) as [->|Hne]; [rewrite EA0 in H; discriminate|]. rewrite (EA' _ _ Hne) in H.
    destruct (st_alloc_sub _ Hix _ _ _ H) as (sb0 & Hs0 & R). exists sb0. rewrite lookup_delete_ne by congruence. split; [exact Hs0|exact R].
  - apply lookup_delete_Some in H as [Hne H]. rewrite (EA' _ _ (not_eq_sym Hne)). eapply (st_sub_alloc _ Hix); eauto.
  - apply lookup_delete_Some in H as [Hne H]. destruct (st_pay_sub _ Hix _ _ H) as (Hh & sb0 & g0 & h0 & d0 & Hs0 & R).
    split; [exact Hh|]. exists sb0, g0, h0, d0. rewrite lookup_delete_ne by congruence. split; [exact Hs0|exact R].
  - apply lookup_delete_Some in H as [Hne H]. rewrite lookup_delete_ne by congruence. eapply (st_sub_pay _ Hix); eauto.
Qed.

Lemma idx_sub_expire_one s e s' : kinv s -> idx_sub s -> sub_expire_one s e = Ok s' -> idx_sub s'.
Proof.
  intros Hi Hix H. destruct (sub_expire_one_effect _ _ _ H) as (sb & Hsb & [(Hact & s1 & Hp & Hd)|(Hact & _)]).
  - destruct (k_sub _ (ki_sub _ Hi) _ _ Hsb) as (Eid & _ & _). rewrite <- Eid in Hsb. apply sub_pending_hook_keeps in Hp.
    eapply (idx_demote s s1 sb Panic); [apply Hi|exact Hix|exact Hsb|exact Hact|..|discriminate|exact Hd]; keeps_solve.
  - eapply idx_removed; [exact Hix|exact Hsb|exact Hact|]. eapply sub_remove_spec; eauto. apply Hi.
Qed.

(** * blocks *)

Lemma idx_sub_begin_block s s' : kinv s -> idx_sub s -> sub_begin_block s = Ok s' -> kinv s' /\ idx_sub s'.
Proof.
  intros Hi Hix H. unfold sub_begin_block in H.
  set (P := fun (rest : list (time * Z)) (x : state) => kinv x /\ idx_sub x /\ NoDup rest /\ forall e, e ∈ rest -> e ∈ pay_q x).
  assert (G : P [] s').
  { eapply (rfold_rest P); [| |exact H].
    - intros e rest x x' (Hkx & Hixx & Hnd & Hin) Hstep.
      assert (He : e ∈ pay_q x) by (apply Hin; left).
      split; [|split; [eapply idx_payout_step; eauto; apply Hkx|split; [inversion Hnd; assumption|]]].
      { pose proof (payout_step_keeps _ _ _ Hstep) as Hkeep. kinv_frame Hkeep Hkx. intros _. eapply kinv_payout_step; eauto. apply Hkx. }
      intros e' He'. assert (Hne : e' <> e) by (inversion Hnd; subst; intros ->; contradiction).
      assert (He'q : e' ∈ pay_q x) by (apply Hin; right; exact He').
      destruct e as [t id]. destruct (proj1 (ix_payq _ Hixx t id) He) as (po & sb & Hpo & Hnx & Hh & Hsb & Hact).
      destruct (k_po _ (ki_sub _ Hkx) _ _ Hpo) as [Eid _].
      destruct (payout_step_spec x (t, id) x' po Hpo Hstep) as (_ & _ & _ & _ & _ & _ & _ & _ & _ & _ & E8).
      cbv zeta in E8. rewrite E8, Hnx, Eid. destruct (0 <? po_hours po - 1); set_solver.
    - split; [exact Hi|split; [exact Hix|split; [apply Sorting.NoDup_due_z|]]].
      intros e He. apply Sorting.elem_of_due_z in He. tauto. }
  destruct G as (G1 & G2 & _). split; assumption.
Qed.

Lemma idx_session_end_block s s' : kinv s -> idx_sub s -> session_end_block s = Ok s' -> kinv s' /\ idx_sub s'.
Proof.
  intros Hi Hix H. unfold session_end_block in H.
  eapply (rfold_inv (fun x => kinv x /\ idx_sub x)); [|split; eassumption|exact H].
  intros x e x' [Hkx Hixx] Hstep. split; [eapply kinv_session_expire_one; eauto|eapply idx_sub_session_expire_one; eauto].
Qed.

Lemma idx_sub_end_block s s' : kinv s -> idx_sub s -> sub_end_block s = Ok s' -> kinv s' /\ idx_sub s'.
Proof.
  intros Hi Hix H. unfold sub_end_block in H.
  eapply (rfold_inv (fun x => kinv x /\ idx_sub x)); [|split; eassumption|exact H].
  intros x e x' [Hkx Hixx] Hstep. split; [eapply kinv_sub_expire_one; eauto|eapply idx_sub_expire_one; eauto].
Qed.

(** * every operation *)

Lemma idx_sub_handle s m s' : kinv s -> idx_sub s -> validate_basic m = true -> handle s m = Ok s' -> idx_sub s'.
Proof.
  intros Hi Hix Hv H. destruct m; simpl in H.
  - eapply idx_sub_keeps; [eapply h_prov_register_keeps; exact H|reflexivity|exact Hix].
  - eapply idx_sub_keeps; [eapply h_prov_update_keeps; exact H|reflexivity|exact Hix].
  - eapply idx_sub_keeps; [eapply h_node_register_keeps; exact H|reflexivity|exact Hix].
  - eapply idx_sub_keeps; [eapply h_node_update_details_keeps; exact H|reflexivity|exact Hix].
  - eapply idx_sub_keeps; [eapply h_node_update_status_keeps; exact H|reflexivity|exact Hix].
  - eapply idx_h_node_subscribe; eauto. apply Hi.
  - eapply idx_sub_keeps; [eapply h_plan_create_keeps; exact H|reflexivity|exact Hix].
  - eapply idx_sub_keeps; [eapply h_plan_update_status_keeps; exact H|reflexivity|exact Hix].
  - eapply idx_sub_keeps; [eapply h_plan_link_keeps; exact H|reflexivity|exact Hix].
  - eapply idx_sub_keeps; [eapply h_plan_unlink_keeps; exact H|reflexivity|exact Hix].
  - eapply idx_h_plan_subscribe; eauto. apply Hi.
  - eapply idx_h_sub_cancel; eauto.
  - eapply idx_h_sub_allocate; eauto.
  - eapply idx_sub_keeps; [eapply h_sess_start_keeps; exact H|reflexivity|exact Hix].
  - eapply idx_sub_keeps; [eapply h_sess_update_keeps; exact H|reflexivity|exact Hix].
  - eapply idx_sub_keeps; [eapply h_sess_end_keeps; exact H|reflexivity|exact Hix].
  - eapply idx_sub_keeps; [eapply h_swap_keeps; exact H|reflexivity|exact Hix].
Qed.

Theorem idx_sub_step s o s' : kinv s -> idx_sub s -> step s o = OOk s' -> idx_sub s'.
Proof.
  intros Hi Hix H. apply step_inv in H. pose proof (kinv_clear _ Hi) as Hi0.
  assert (Hix0 : idx_sub (clear_events s)) by (eapply idx_sub_frame; [..|exact Hix]; reflexivity).
  destruct o.
  - apply begin_block_effect in H as (s1 & Hm & H). apply mint_begin_block_keeps in Hm.
    assert (K : keeps [GMint; GNow] s s1) by keeps_chain.
    eapply idx_sub_begin_block; [| |exact H]; [exact (kinv_other _ _ _ K eq_refl eq_refl eq_refl eq_refl eq_refl Hi)|].
    exact (idx_sub_keeps _ _ _ K eq_refl Hix).
  - destruct H as [Hv H]. eapply idx_sub_handle; [exact Hi0|exact Hix0|exact Hv|exact H].
  - destruct H as [_ ->]. apply (fold_left_inv idx_sub); [|exact Hix0].
    intros y c Hy. eapply idx_sub_keeps; [apply apply_pchange_keeps|reflexivity|exact Hy].
  - destruct H as (se & H & ->). apply end_block_effect in H as (s1 & s2 & H1 & H2 & H3).
    pose proof (kinv_node_end_block _ _ Hi0 H1) as Hi1.
    pose proof (idx_sub_keeps _ _ _ (node_end_block_keeps _ _ H1) eq_refl Hix0) as Hix1.
    destruct (idx_session_end_block _ _ Hi1 Hix1 H2) as [Hi2 Hix2].
    destruct (idx_sub_end_block _ _ Hi2 Hix2 H3) as [Hi3 Hix3].
    eapply idx_sub_frame; [..|exact Hix3]; reflexivity.
Qed.

Lemma idx_sub_init g : idx_sub (init g).
Proof.
  assert (H0 : idx_sub (empty_state (g_cfg g) (g_params g))).
  { split; simpl; intros; try set_solver; try (rewrite lookup_empty in *; discriminate).
    all: split; [set_solver|]; intros; repeat match goal with H : exists _, _ |- _ => destruct H end;
      repeat match goal with H : _ /\ _ |- _ => destruct H end; rewrite lookup_empty in *; discriminate. }
  exact (idx_sub_keeps _ _ _ (init_keeps g) eq_refl H0).
Qed.

Theorem idx_sub_run ops : forall s i s', kinv s -> idx_sub s -> run_from s ops i = RunOk s' -> idx_sub s'.
Proof.
  intros s i s' Hi Hix H. apply (run_from_inv (fun x => kinv x /\ idx_sub x) ops s i s'); [| |auto|exact H].
  - intros x o x' [A B] Hs. split; [eapply kinv_step|eapply idx_sub_step]; eauto.
  - intros x [A B]. split; [apply kinv_clear; exact A|eapply idx_sub_frame; [..|exact B]; reflexivity].
Qed.
