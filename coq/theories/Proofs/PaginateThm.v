(* Proofs about Model/Paginate.v: paging with cosmos-sdk Paginate / FilteredPaginate enumerates the
   matching entries exactly once, in store order, and count_total reports their number - for every
   callback whose hit decision does not depend on [accumulate]; and the historical defect (hit
   reported only when accumulate is set) breaks it. *)
From Hub Require Import Base.Prelude Model.Paginate.
From Coq Require Import ZifyN ZifyNat ZifyBool Sorted.
Local Open Scope N_scope.

(* ------------------------------------------------------------------ key order *)

Lemma key_ltb_irrefl a : key_ltb a a = false.
Proof.
  induction a as [|x a IH]; cbn [key_ltb]; [reflexivity|].
  rewrite N.ltb_irrefl. exact IH.
Qed.

Lemma key_ltb_cons x a y b :
  key_ltb (x :: a) (y :: b) = true <-> x < y \/ x = y /\ key_ltb a b = true.
Proof.
  cbn [key_ltb]. destruct (N.ltb_spec x y) as [Hxy|Hxy]; [split; auto|].
  destruct (N.ltb_spec y x) as [Hyx|Hyx].
  - split; [discriminate|]. intros [H|[H _]]; lia.
  - split; [right; split; [lia|assumption]|]. intros [H|[_ H]]; [lia|exact H].
Qed.

Lemma key_ltb_trans a b c : key_ltb a b = true -> key_ltb b c = true -> key_ltb a c = true.
Proof.
  revert b c. induction a as [|x a IH]; intros [|y b] [|z c]; try (cbn [key_ltb]; congruence).
  rewrite !key_ltb_cons. intros [H1|[-> H1]] [H2|[-> H2]]; [left; lia|left; exact H1|left; exact H2|].
  right. split; [reflexivity|]. exact (IH b c H1 H2).
Qed.

Definition key_lt {V} (a b : key * V) : Prop := key_ltb (fst a) (fst b) = true.

(* the entries of a prefix store in store order: strictly ascending keys *)
Definition key_sorted {V} (items : list (key * V)) : Prop := StronglySorted key_lt items.

Lemma sorted_key_sorted {V} (items : list (key * V)) : Sorted key_lt items -> key_sorted items.
Proof.
  apply Sorted_StronglySorted. intros a b c. unfold key_lt. apply key_ltb_trans.
Qed.

Lemma key_sorted_split {V} (A : list (key * V)) x B :
  key_sorted (A ++ x :: B) -> Forall (fun a => key_lt a x) A /\ Forall (key_lt x) B.
Proof.
  induction A as [|a A IH]; cbn [app]; intros Hs.
  - apply StronglySorted_inv in Hs as [_ Hf]. split; [constructor|exact Hf].
  - apply StronglySorted_inv in Hs as [Hs Hf].
    destruct (IH Hs) as [HA HB]. split; [|exact HB].
    constructor; [|exact HA].
    rewrite Forall_app in Hf. destruct Hf as [_ Hf]. inversion Hf; assumption.
Qed.

(* ---------------------------------------------------------------- list lemmas *)

Lemma drop_while_app_all {A} (p : A -> bool) (l : list A) x l' :
  Forall (fun a => p a = true) l -> p x = false -> drop_while p (l ++ x :: l') = x :: l'.
Proof.
  intros Hl Hx. induction Hl as [|a l Ha Hl IH]; cbn [app drop_while].
  - rewrite Hx. reflexivity.
  - rewrite Ha. exact IH.
Qed.

Lemma take_while_app_all {A} (p : A -> bool) (l : list A) x l' :
  Forall (fun a => p a = true) l -> p x = false -> take_while p (l ++ x :: l') = l.
Proof.
  intros Hl Hx. induction Hl as [|a l Ha Hl IH]; cbn [app take_while].
  - rewrite Hx. reflexivity.
  - rewrite Ha, IH. reflexivity.
Qed.

Lemma filter_split {A} (p : A -> bool) (l : list A) : forall H1 x H2,
  List.filter p l = H1 ++ x :: H2 ->
  exists P S, l = P ++ x :: S /\ List.filter p P = H1 /\ List.filter p S = H2 /\ p x = true.
Proof.
  induction l as [|a l IH]; intros H1 x H2 Heq; cbn [List.filter] in Heq.
  - destruct H1; discriminate.
  - destruct (p a) eqn:Hpa.
    + destruct H1 as [|b H1]; cbn [app] in Heq.
      * injection Heq as -> Hl. exists [], l. cbn [app List.filter]. auto.
      * injection Heq as -> Hl. destruct (IH _ _ _ Hl) as (P & S & -> & HP & HS & Hx).
        exists (b :: P), S. cbn [app List.filter]. rewrite Hpa, HP. auto.
    + destruct (IH _ _ _ Heq) as (P & S & -> & HP & HS & Hx).
      exists (a :: P), S. cbn [app List.filter]. rewrite Hpa. auto.
Qed.

(* primed names: about [List.filter] on boolean predicates, which the model uses; the unprimed
   names are stdpp's, about its own [filter] *)
Lemma filter_length_le' {A} (p : A -> bool) (l : list A) : (length (List.filter p l) <= length l)%nat.
Proof.
  induction l as [|a l IH]; cbn [List.filter length]; [lia|]. destruct (p a); cbn [length]; lia.
Qed.

Lemma filter_rev' {A} (p : A -> bool) (l : list A) :
  List.filter p (rev l) = rev (List.filter p l).
Proof.
  induction l as [|a l IH]; cbn [rev List.filter]; [reflexivity|].
  rewrite List.filter_app, IH. cbn [List.filter]. destruct (p a); cbn [rev]; [reflexivity|].
  rewrite app_nil_r. reflexivity.
Qed.

Lemma filter_true' {A} (l : list A) : List.filter (fun _ => true) l = l.
Proof. induction l as [|a l IH]; cbn [List.filter]; [reflexivity|]. rewrite IH. reflexivity. Qed.

Lemma nth_error_split' {A} (l : list A) n x :
  nth_error l n = Some x -> exists l1 l2, l = l1 ++ x :: l2 /\ length l1 = n.
Proof. apply nth_error_split. Qed.

(* the iteration order of a request *)
Definition order {A} (rv : bool) (l : list A) : list A := if rv then rev l else l.

Lemma order_In {A} rv (l : list A) x : In x (order rv l) <-> In x l.
Proof. destruct rv; [symmetry; apply in_rev|reflexivity]. Qed.

Lemma order_filter {A} (p : A -> bool) rv (l : list A) :
  List.filter p (order rv l) = order rv (List.filter p l).
Proof. destruct rv; cbn [order]; [apply filter_rev'|reflexivity]. Qed.

Lemma order_length {A} rv (l : list A) : length (order rv l) = length l.
Proof. destruct rv; [apply rev_length|reflexivity]. Qed.

(* ------------------------------------------------------------------ iterators *)

Section Iter.
  Context {V : Type}.

  Lemma iter_fwd_at A k (v : V) B :
    key_sorted (A ++ (k, v) :: B) ->
    iter_from (A ++ (k, v) :: B) (Some k) false = Ok ((k, v) :: B).
  Proof.
    intros Hs. destruct (key_sorted_split _ _ _ Hs) as [HA _].
    unfold iter_from. rewrite drop_while_app_all; [reflexivity|exact HA|].
    cbn [fst]. apply key_ltb_irrefl.
  Qed.

  Lemma iter_rev_at A k (v : V) k2 v2 B :
    key_sorted (A ++ (k, v) :: (k2, v2) :: B) ->
    iter_from (A ++ (k, v) :: (k2, v2) :: B) (Some k) true = Ok ((k, v) :: rev A).
  Proof.
    intros Hs. destruct (key_sorted_split _ _ _ Hs) as [HA _].
    unfold iter_from. rewrite drop_while_app_all; [|exact HA|cbn [fst]; apply key_ltb_irrefl].
    replace (A ++ (k, v) :: (k2, v2) :: B) with ((A ++ [(k, v)]) ++ (k2, v2) :: B) in *
      by (rewrite <- app_assoc; reflexivity).
    destruct (key_sorted_split _ _ _ Hs) as [HA2 _].
    rewrite take_while_app_all; [|exact HA2|cbn [fst]; apply key_ltb_irrefl].
    rewrite rev_app_distr. reflexivity.
  Qed.

  (* positioning an iterator at an existing key that is not the first one in iteration order *)
  Lemma iter_at items rv P k (v : V) S :
    key_sorted items -> order rv items = P ++ (k, v) :: S -> P <> [] ->
    iter_from items (Some k) rv = Ok ((k, v) :: S).
  Proof.
    intros Hs Ho HP. destruct rv; cbn [order] in Ho.
    - assert (Hi : items = rev S ++ (k, v) :: rev P).
      { rewrite <- (rev_involutive items), Ho, rev_app_distr. cbn [rev].
        rewrite <- app_assoc. reflexivity. }
      destruct (rev P) as [|[k2 v2] B] eqn:HrP.
      { exfalso. apply HP. rewrite <- (rev_involutive P), HrP. reflexivity. }
      rewrite Hi in Hs |- *. rewrite (iter_rev_at _ _ _ _ _ _ Hs), rev_involutive. reflexivity.
    - rewrite Ho in Hs |- *. apply iter_fwd_at. exact Hs.
  Qed.
End Iter.

(* ------------------------------------------------------------------ single calls *)

Lemma wrap_small n : n < u64 -> wrap n = n.
Proof. intros Hn. unfold wrap. apply N.mod_small. exact Hn. Qed.

Lemma eff_limit_pos l : 1 <= eff_limit l.
Proof. unfold eff_limit, default_limit. destruct (N.eqb_spec l 0); lia. Qed.

Lemma limit_ct_eq l ct :
  (if l =? 0 then (default_limit, true) else (l, ct)) = (eff_limit l, (l =? 0) || ct).
Proof. unfold eff_limit. destruct (l =? 0); reflexivity. Qed.

(* The hypothesis on a FilteredPaginate callback, three things although the name says one: on every
   entry of the store it succeeds, reports the hit [h k v] whatever [accumulate] is, and appends [f k v]
   exactly when it is a hit and accumulate is set. *)
Definition hit_independent_of_accumulate {V R} (cb : fcallback V R) (h : key -> V -> bool)
    (f : key -> V -> R) (items : list (key * V)) : Prop :=
  forall k v, In (k, v) items -> forall acc : bool,
    cb k v acc = Ok (h k v, if acc && h k v then Some (f k v) else None).

(* The hypothesis on a Paginate callback: on every entry of the store it succeeds and appends [f k v]. *)
Definition appends_each {V R} (cb : callback V R) (f : key -> V -> R) (items : list (key * V)) : Prop :=
  forall k v, In (k, v) items -> cb k v = Ok (f k v).

Section Single.
  Context {V R : Type} (cb : fcallback V R) (h : key -> V -> bool) (f : key -> V -> R).
  Let h' (kv : key * V) : bool := h (fst kv) (snd kv).
  Let f' (kv : key * V) : R := f (fst kv) (snd kv).

  Lemma filter_hits_cons k v it :
    List.filter h' ((k, v) :: it) = (if h k v then [(k, v)] else []) ++ List.filter h' it.
  Proof. cbn [List.filter]. unfold h' at 1. cbn [fst snd]. destruct (h k v); reflexivity. Qed.

  (* key mode: the page holds the hits of a prefix [it1] of the iterator and next_key is the key of the
     entry right after it; or the iterator is exhausted. *)
  Lemma fp_key_loop_spec (lim : N) : lim < u64 -> forall it n,
    hit_independent_of_accumulate cb h f it -> n <= lim ->
    exists page nk, fp_key_loop cb lim it n = Ok (page, nk) /\
      ((nk = None /\ page = map f' (List.filter h' it)) \/
       (exists it1 k v it2, it = it1 ++ (k, v) :: it2 /\ (n < lim -> it1 <> []) /\ nk = Some k /\
                            page = map f' (List.filter h' it1))).
  Proof.
    intros Hlim. induction it as [|[k v] it IH]; intros n Hcb Hn; cbn [fp_key_loop].
    - exists [], None. split; [reflexivity|]. left. split; reflexivity.
    - destruct (N.eqb_spec n lim) as [->|Hne].
      + exists [], (Some k). split; [reflexivity|]. right.
        exists [], k, v, it. cbn [app List.filter map]. repeat split; try reflexivity. lia.
      + rewrite (Hcb k v (or_introl eq_refl)). cbn [andb rbind].
        assert (Hhit : (if h k v then wrap (n + 1) else n) <= lim)
          by (destruct (h k v); [rewrite wrap_small by lia|]; lia).
        destruct (IH _ (fun k0 v0 Hin => Hcb k0 v0 (or_intror Hin)) Hhit) as (page & nk & Heq & Hspec).
        rewrite Heq. cbn [rbind].
        exists (map f' (if h k v then [(k, v)] else []) ++ page), nk.
        split; [destruct (h k v); reflexivity|].
        destruct Hspec as [[-> ->]|(it1 & k1 & v1 & it2 & -> & Hne1 & -> & ->)].
        * left. split; [reflexivity|]. rewrite filter_hits_cons, map_app. reflexivity.
        * right. exists ((k, v) :: it1), k1, v1, it2. rewrite filter_hits_cons, map_app.
          repeat split; try reflexivity. discriminate.
  Qed.

  (* offset mode *)
  Section Off.
    Variables (o e : N) (ct : bool).
    Hypothesis Hoe : o <= e.
    Hypothesis He : e + 1 < u64.

    (* the hits with global index in [o, e), when the list starts at global index n *)
    Definition window {A} (n : N) (H : list A) : list A :=
      firstn (N.to_nat (e - N.max n o)) (skipn (N.to_nat (o - n)) H).

    Lemma window_cons {A} n (x : A) H :
      window n (x :: H) = (if (o <=? n) && (n <? e) then [x] else []) ++ window (n + 1) H.
    Proof.
      unfold window.
      destruct (N.leb_spec o n) as [Hon|Hon]; destruct (N.ltb_spec n e) as [Hne|Hne]; cbn [andb app].
      - replace (N.to_nat (o - n)) with 0%nat by lia.
        replace (N.to_nat (o - (n + 1))) with 0%nat by lia.
        replace (N.to_nat (e - N.max n o)) with (S (N.to_nat (e - N.max (n + 1) o))) by lia.
        reflexivity.
      - replace (N.to_nat (e - N.max n o)) with 0%nat by lia.
        replace (N.to_nat (e - N.max (n + 1) o)) with 0%nat by lia.
        reflexivity.
      - replace (N.to_nat (o - n)) with (S (N.to_nat (o - (n + 1)))) by lia.
        replace (N.max (n + 1) o) with (N.max n o) by lia.
        reflexivity.
      - lia.
    Qed.

    Definition nk_spec (n : N) (nk : option key) (H : list (key * V)) : option key :=
      if n <=? e then option_map fst (nth_error H (N.to_nat (e - n))) else nk.

    Lemma fp_off_loop_spec : forall it n nk, hit_independent_of_accumulate cb h f it ->
      (n <= e -> nk = None) -> (e < n -> nk <> None) -> n + N.of_nat (length it) < u64 ->
      exists n', fp_off_loop cb o e ct it n nk =
                   Ok (map f' (window n (List.filter h' it)), nk_spec n nk (List.filter h' it), n') /\
                 (ct = true -> n' = n + N.of_nat (length (List.filter h' it))).
    Proof.
      induction it as [|[k v] it IH]; intros n nk Hcb Hnk1 Hnk2 Hlen; cbn [fp_off_loop].
      - cbn [List.filter]. exists n. split; [|cbn [length]; lia].
        unfold window, nk_spec. rewrite skipn_nil, firstn_nil. cbn [map].
        destruct (N.leb_spec n e) as [Hn|Hn].
        + rewrite (Hnk1 Hn). destruct (N.to_nat (e - n)); reflexivity.
        + reflexivity.
      - cbn [length] in Hlen. rewrite (Hcb k v (or_introl eq_refl)). cbn [rbind].
        assert (IH' := fun n nk => IH n nk (fun k0 v0 Hin => Hcb k0 v0 (or_intror Hin))).
        rewrite (wrap_small (e + 1)) by exact He.
        destruct (h k v) eqn:Hh.
        + rewrite filter_hits_cons, Hh. cbn [app]. rewrite wrap_small by lia. rewrite andb_true_r.
          rewrite window_cons.
          destruct (N.eqb_spec (n + 1) (e + 1)) as [Heq|Hneq].
          * assert (n = e) as -> by lia.
            rewrite (Hnk1 (N.le_refl e)).
            replace ((o <=? e) && (e <? e)) with false
              by (destruct (N.ltb_spec e e); [lia|rewrite andb_false_r; reflexivity]).
            cbn [opt_list app].
            destruct ct.
            -- destruct (IH' (e + 1) (Some k)) as (n' & Heq' & Hn'); [lia|congruence|lia|].
               rewrite Heq'. cbn [rbind]. exists n'. split.
               ++ unfold nk_spec. destruct (N.leb_spec (e + 1) e); [lia|].
                  rewrite N.leb_refl, N.sub_diag. reflexivity.
               ++ intros _. cbn [length]. rewrite Hn' by reflexivity. lia.
            -- exists (e + 1). split; [|discriminate].
               unfold nk_spec. rewrite N.leb_refl, N.sub_diag. cbn [nth_error option_map fst].
               unfold window. replace (N.to_nat (e - N.max (e + 1) o)) with 0%nat by lia.
               reflexivity.
          * destruct (IH' (n + 1) nk) as (n' & Heq' & Hn'); [intros; apply Hnk1; lia|intros; apply Hnk2; lia|lia|].
            rewrite Heq'. cbn [rbind]. exists n'. split.
            -- f_equal. f_equal. f_equal.
               ++ rewrite map_app. f_equal.
                  destruct ((o <=? n) && (n <? e)); reflexivity.
               ++ unfold nk_spec.
                  destruct (N.leb_spec n e) as [Hn|Hn]; destruct (N.leb_spec (n + 1) e) as [Hn1|Hn1]; try lia.
                  ** replace (N.to_nat (e - n)) with (S (N.to_nat (e - (n + 1)))) by lia. reflexivity.
                  ** reflexivity.
            -- intros Hct. cbn [length]. rewrite (Hn' Hct). lia.
        + rewrite filter_hits_cons, Hh. rewrite andb_false_r. cbn [opt_list app].
          destruct (N.eqb_spec n (e + 1)) as [Heq|Hneq].
          * assert (Hnk : match nk with None => Some k | Some _ => nk end = nk).
            { destruct nk; [reflexivity|]. exfalso. apply Hnk2; [lia|reflexivity]. }
            rewrite Hnk.
            destruct ct.
            -- destruct (IH' n nk) as (n' & Heq' & Hn'); [exact Hnk1|exact Hnk2|lia|].
               rewrite Heq'. cbn [rbind]. exists n'. split; [reflexivity|exact Hn'].
            -- exists n. split; [|discriminate].
               unfold nk_spec, window. destruct (N.leb_spec n e); [lia|].
               replace (N.to_nat (e - N.max n o)) with 0%nat by lia. reflexivity.
          * destruct (IH' n nk) as (n' & Heq' & Hn'); [exact Hnk1|exact Hnk2|lia|].
            rewrite Heq'. cbn [rbind]. exists n'. split; [reflexivity|exact Hn'].
    Qed.
  End Off.

  (* a whole offset-mode call from the start of the iterator *)
  Lemma fp_off_start (ORD : list (key * V)) o L ct :
    hit_independent_of_accumulate cb h f ORD ->
    1 <= L -> o + L + 1 < u64 -> N.of_nat (length ORD) < u64 ->
    let H := List.filter h' ORD in
    exists n', fp_off_loop cb o (wrap (o + L)) ct ORD 0 None =
                 Ok (map f' (firstn (N.to_nat L) (skipn (N.to_nat o) H)),
                     option_map fst (nth_error H (N.to_nat (o + L))), n') /\
               (ct = true -> n' = N.of_nat (length H)).
  Proof.
    intros Hcb HL Hw Hlen H. rewrite wrap_small by lia.
    destruct (fp_off_loop_spec o (o + L) ct ltac:(lia) ltac:(lia) ORD 0 None Hcb) as (n' & Heq & Hn');
      [reflexivity|lia|lia|].
    exists n'. split; [|intros Hct; rewrite (Hn' Hct); fold H; lia].
    rewrite Heq. fold H. unfold window, nk_spec.
    replace (N.to_nat (o + L - N.max 0 o)) with (N.to_nat L) by lia.
    replace (N.to_nat (o - 0)) with (N.to_nat o) by lia.
    replace (0 <=? o + L) with true by (symmetry; apply N.leb_le; lia).
    replace (N.to_nat (o + L - 0)) with (N.to_nat (o + L)) by lia.
    reflexivity.
  Qed.

  Lemma filtered_offset_call items o l ct rv :
    hit_independent_of_accumulate cb h f items ->
    o + eff_limit l + 1 < u64 -> N.of_nat (length items) < u64 ->
    let H := List.filter h' (order rv items) in
    filtered_paginate cb items (mk_req None o l ct rv) =
      Ok (map f' (firstn (N.to_nat (eff_limit l)) (skipn (N.to_nat o) H)),
          mk_resp (option_map fst (nth_error H (N.to_nat (o + eff_limit l))))
                  (if (l =? 0) || ct then N.of_nat (length H) else 0)).
  Proof.
    intros Hcb Hw Hlen H. unfold filtered_paginate. cbn [pr_key pr_offset pr_limit pr_count_total pr_reverse].
    rewrite andb_false_r, limit_ct_eq.
    change (iter_from items None rv) with (Ok (order rv items)). cbn [rbind].
    destruct (fp_off_start (order rv items) o (eff_limit l) ((l =? 0) || ct)) as (n' & Heq & Hn');
      [|apply eff_limit_pos|exact Hw| |].
    { intros k v Hin. apply Hcb, (order_In rv), Hin. }
    { destruct rv; cbn [order]; [rewrite rev_length|]; exact Hlen. }
    rewrite Heq. cbn [rbind]. fold H. destruct ((l =? 0) || ct); [rewrite (Hn' eq_refl)|]; reflexivity.
  Qed.

  Lemma filtered_key_call items l ct rv P k v S :
    hit_independent_of_accumulate cb h f items ->
    key_sorted items -> k <> [] -> eff_limit l < u64 ->
    order rv items = P ++ (k, v) :: S -> P <> [] ->
    exists page nk,
      filtered_paginate cb items (mk_req (Some k) 0 l ct rv) = Ok (page, mk_resp nk 0) /\
      ((nk = None /\ page = map f' (List.filter h' ((k, v) :: S))) \/
       (exists it1 k' v' it2, (k, v) :: S = it1 ++ (k', v') :: it2 /\ it1 <> [] /\ nk = Some k' /\
                              page = map f' (List.filter h' it1))).
  Proof.
    intros Hcb Hs Hk Hw Ho HP. unfold filtered_paginate.
    cbn [pr_key pr_offset pr_limit pr_count_total pr_reverse]. rewrite limit_ct_eq.
    replace (0 <? 0) with false by reflexivity. cbn [andb].
    destruct k as [|b kt]; [contradiction|].
    rewrite (iter_at items rv P _ v S Hs Ho HP). cbn [rbind].
    destruct (fp_key_loop_spec (eff_limit l) Hw ((b :: kt, v) :: S) 0) as (page & nk & Heq & Hspec);
      [|apply N.le_0_l|].
    { intros k0 v0 Hin. apply Hcb, (order_In rv). rewrite Ho. apply in_or_app. right. exact Hin. }
    rewrite Heq. cbn [rbind]. exists page, nk. split; [reflexivity|].
    destruct Hspec as [Hl|(it1 & k1 & v1 & it2 & Hit & Hne & Hnk & Hpg)]; [left; exact Hl|right].
    exists it1, k1, v1, it2. repeat split; try assumption. apply Hne.
    pose proof (eff_limit_pos l). lia.
  Qed.
End Single.

(* ---------------------------------------- Paginate is FilteredPaginate with "always hit" *)

Lemma rbind_ret3 {A B C} (m : res (A * B * C)) : (let! '(a, b, c) := m in Ok (a, b, c)) = m.
Proof. destruct m as [[[a b] c]| |]; reflexivity. Qed.

Section PaginateAsFiltered.
  Context {V R : Type} (cb : callback V R) (f : key -> V -> R).
  Let yes : key -> V -> bool := fun _ _ => true.

  Lemma good_yes k v acc : good_cb yes f k v acc = Ok (true, if acc : bool then Some (f k v) else None).
  Proof. unfold good_cb, yes. rewrite andb_true_r. reflexivity. Qed.

  Lemma pg_key_loop_eq lim it : appends_each cb f it -> forall n,
    pg_key_loop cb lim it n = fp_key_loop (good_cb yes f) lim it n.
  Proof.
    induction it as [|[k v] it IH]; intros Hcb n; cbn [pg_key_loop fp_key_loop]; [reflexivity|].
    destruct (n =? lim); [reflexivity|].
    rewrite good_yes, (Hcb k v (or_introl eq_refl)). cbn [rbind andb opt_list app].
    rewrite IH by (intros k0 v0 Hin; apply Hcb; right; exact Hin). reflexivity.
  Qed.

  Lemma pg_off_loop_eq o e ct : o <= e -> e + 1 < u64 -> forall it, appends_each cb f it -> forall n nk,
    (n <= e -> nk = None) -> n + N.of_nat (length it) < u64 ->
    pg_off_loop cb o e ct it n nk = fp_off_loop (good_cb yes f) o e ct it n nk.
  Proof.
    intros Hoe He. induction it as [|[k v] it IH]; intros Hcb n nk Hnk Hlen;
      cbn [pg_off_loop fp_off_loop]; [reflexivity|].
    cbn [length] in Hlen. specialize (IH (fun k0 v0 Hin => Hcb k0 v0 (or_intror Hin))).
    rewrite good_yes, (Hcb k v (or_introl eq_refl)). cbn [rbind].
    rewrite (wrap_small (n + 1)) by lia. rewrite (wrap_small (e + 1)) by exact He.
    destruct (N.leb_spec (n + 1) o) as [H1|H1].
    - replace (o <=? n) with false by (symmetry; apply N.leb_gt; lia). cbn [andb opt_list app].
      replace (n + 1 =? e + 1) with false by (symmetry; apply N.eqb_neq; lia).
      rewrite IH by (try lia; intros; apply Hnk; lia).
      symmetry. apply rbind_ret3.
    - replace (o <=? n) with true by (symmetry; apply N.leb_le; lia). cbn [andb].
      destruct (N.leb_spec (n + 1) e) as [H2|H2].
      + replace (n <? e) with true by (symmetry; apply N.ltb_lt; lia). cbn [opt_list app].
        replace (n + 1 =? e + 1) with false by (symmetry; apply N.eqb_neq; lia).
        rewrite IH by (try lia; intros; apply Hnk; lia).
        reflexivity.
      + replace (n <? e) with false by (symmetry; apply N.ltb_ge; lia). cbn [opt_list app].
        destruct (N.eqb_spec (n + 1) (e + 1)) as [H3|H3].
        * rewrite (Hnk ltac:(lia)).
          destruct ct; [|reflexivity].
          rewrite IH by (try lia; intros; lia).
          symmetry. apply rbind_ret3.
        * rewrite IH by (try lia; intros; lia).
          symmetry. apply rbind_ret3.
  Qed.

  (* on the requests the clients send, Paginate answers like FilteredPaginate with "always hit" *)
  Lemma paginate_offset_call items o l ct rv : appends_each cb f items ->
    o + eff_limit l + 1 < u64 -> N.of_nat (length items) < u64 ->
    paginate cb items (mk_req None o l ct rv) = filtered_paginate (good_cb yes f) items (mk_req None o l ct rv).
  Proof.
    intros Hcb Hw Hlen. unfold paginate, filtered_paginate.
    cbn [pr_key pr_offset pr_limit pr_count_total pr_reverse]. rewrite andb_false_r, limit_ct_eq.
    change (iter_from items None rv) with (Ok (order rv items)). cbn [rbind].
    pose proof (eff_limit_pos l). rewrite wrap_small by lia.
    rewrite pg_off_loop_eq; [reflexivity|lia|lia| |reflexivity|rewrite order_length; lia].
    intros k v Hin. apply Hcb, (order_In rv), Hin.
  Qed.

  Lemma paginate_key_call items l ct rv P k v S : appends_each cb f items ->
    key_sorted items -> k <> [] -> order rv items = P ++ (k, v) :: S -> P <> [] ->
    paginate cb items (mk_req (Some k) 0 l ct rv) =
    filtered_paginate (good_cb yes f) items (mk_req (Some k) 0 l ct rv).
  Proof.
    intros Hcb Hs Hk Ho HP. unfold paginate, filtered_paginate.
    cbn [pr_key pr_offset pr_limit pr_count_total pr_reverse]. rewrite limit_ct_eq.
    destruct k as [|b kt]; [contradiction|]. replace (0 <? 0) with false by reflexivity. cbn [andb].
    rewrite (iter_at items rv P _ v S Hs Ho HP). cbn [rbind].
    rewrite pg_key_loop_eq; [reflexivity|].
    intros k0 v0 Hin. apply Hcb, (order_In rv). rewrite Ho. apply in_or_app. right. exact Hin.
  Qed.
End PaginateAsFiltered.

(* ------------------------------------------------------------------ clients *)

Lemma follow_keys_length {R} fuel (q : page_request -> res (list R * page_response)) : forall req pages,
  follow_keys fuel q req = Some pages -> (length pages <= fuel)%nat.
Proof.
  induction fuel as [|fuel IH]; intros req pages; cbn [follow_keys]; [discriminate|].
  destruct (q req) as [[page resp]| |]; try discriminate.
  destruct (next_key resp) as [[|b kt]|].
  - intros [= <-]. cbn [length]. lia.
  - destruct (follow_keys fuel q _) as [ps|] eqn:Hf; cbn [option_map]; [|discriminate].
    intros [= <-]. cbn [length]. apply IH in Hf. lia.
  - intros [= <-]. cbn [length]. lia.
Qed.

Lemma follow_keys_mono {R} fuel (q : page_request -> res (list R * page_response)) : forall req pages,
  follow_keys fuel q req = Some pages -> forall fuel', (fuel <= fuel')%nat -> follow_keys fuel' q req = Some pages.
Proof.
  induction fuel as [|fuel IH]; intros req pages; cbn [follow_keys]; [discriminate|].
  intros Hf [|fuel'] Hle; [lia|]. cbn [follow_keys].
  destruct (q req) as [[page resp]| |]; try discriminate.
  destruct (next_key resp) as [[|b kt]|]; try exact Hf.
  destruct (follow_keys fuel q _) as [ps|] eqn:Hf'; cbn [option_map] in Hf; [|discriminate].
  rewrite (IH _ _ Hf' fuel') by lia. exact Hf.
Qed.

(* ------------------------------------------------------- the statement of C13 *)

(* [q] pages [expected] completely: with limit [l] (0 = default 100), count_total [ct], direction [rv],
   for a store of [n] entries:
   (a) following next_key from the empty key until it is empty terminates after at most n+1 requests and
       the pages concatenate to [expected];
   (b) stepping offset = 0, L, 2L, ... until a page has fewer than L elements gives the same concatenation;
   (b') so does stepping until no next_key is returned;
   (c) every offset-mode request with count_total set (or limit 0) reports total = |expected|. *)
Definition pages_completely {R} (q : page_request -> res (list R * page_response))
    (l : N) (ct rv : bool) (n : nat) (expected : list R) : Prop :=
  (exists pages, (forall fuel, (n < fuel)%nat -> follow_keys fuel q (mk_req None 0 l ct rv) = Some pages) /\
                 concat pages = expected /\ (length pages <= S n)%nat) /\
  (forall fuel, (n < fuel)%nat ->
     exists pages, step_offsets fuel q (mk_req None 0 l ct rv) (eff_limit l) 0 = Some pages /\
                   concat pages = expected) /\
  (forall fuel, (n < fuel)%nat ->
     exists pages, step_offsets_nk fuel q (mk_req None 0 l ct rv) (eff_limit l) 0 = Some pages /\
                   concat pages = expected) /\
  (forall o, o <= N.of_nat (length expected) -> (l =? 0) || ct = true ->
     exists page nk, q (mk_req None o l ct rv) = Ok (page, mk_resp nk (N.of_nat (length expected)))).

(* no uint64 wrap-around in [offset + limit + 1] for any offset up to the size of the store *)
Definition no_wrap {V} (items : list (key * V)) (l : N) : Prop :=
  N.of_nat (length items) + eff_limit l + 1 < u64.

Definition keys_nonempty {V} (items : list (key * V)) : Prop := Forall (fun kv => fst kv <> []) items.

Lemma nonempty_key_at {V} P k (v : V) S : keys_nonempty (P ++ (k, v) :: S) -> k <> [].
Proof. intros Hn. apply Forall_app in Hn as [_ Hn]. apply Forall_inv in Hn. exact Hn. Qed.

Section Client.
  Context {V R : Type} (ORD : list (key * V)) (h' : key * V -> bool) (f' : key * V -> R)
          (l : N) (ct rv : bool) (q : page_request -> res (list R * page_response)).
  Let L := eff_limit l.
  Let H := List.filter h' ORD.

  (* What the clients need of [q]: it answers the requests they send like a paginator whose iterator
     yields [ORD] and whose hits are [H].  An offset-mode request returns the hits in the window at
     the offset, the key of the hit after the window, and as total the number of hits if asked.  A
     key-mode request at an entry other than the first returns the hits among a non-empty run of entries
     from there and the key of the entry after the run, or all remaining hits and no key. *)
  Definition serves : Prop :=
    (forall o, o <= N.of_nat (length H) ->
       q (mk_req None o l ct rv) =
         Ok (map f' (firstn (N.to_nat L) (skipn (N.to_nat o) H)),
             mk_resp (option_map fst (nth_error H (N.to_nat (o + L))))
                     (if (l =? 0) || ct then N.of_nat (length H) else 0))) /\
    (forall P k v S, ORD = P ++ (k, v) :: S -> P <> [] ->
       exists page nk, q (mk_req (Some k) 0 l ct rv) = Ok (page, mk_resp nk 0) /\
         ((nk = None /\ page = map f' (List.filter h' ((k, v) :: S))) \/
          (exists it1 k' v' it2, (k, v) :: S = it1 ++ (k', v') :: it2 /\ it1 <> [] /\ nk = Some k' /\
                                 page = map f' (List.filter h' it1)))).

  Hypothesis Hne : keys_nonempty ORD.
  Hypothesis Hq : serves.

  Lemma limit_ge_1 : 1 <= L.
  Proof. apply eff_limit_pos. Qed.

  Lemma hits_length_le : (length H <= length ORD)%nat.
  Proof. apply filter_length_le'. Qed.

  Lemma page_app o :
    map f' (firstn (N.to_nat L) (skipn (N.to_nat o) H)) ++ map f' (skipn (N.to_nat (o + L)) H) =
    map f' (skipn (N.to_nat o) H).
  Proof. rewrite N2Nat.inj_add, <- drop_drop, <- map_app, firstn_skipn. reflexivity. Qed.

  Lemma last_page o : (length H <= N.to_nat (o + L))%nat ->
    firstn (N.to_nat L) (skipn (N.to_nat o) H) = skipn (N.to_nat o) H.
  Proof. intros Hlen. apply firstn_all2. rewrite skipn_length. lia. Qed.

  Lemma follow_from_key : forall fuel P k v S,
    ORD = P ++ (k, v) :: S -> P <> [] -> (length S < fuel)%nat ->
    exists pages, follow_keys fuel q (mk_req (Some k) 0 l ct rv) = Some pages /\
                  concat pages = map f' (List.filter h' ((k, v) :: S)).
  Proof.
    induction fuel as [|fuel IH]; intros P k v S Ho HP Hlen; [lia|].
    cbn [follow_keys].
    destruct (proj2 Hq P k v S Ho HP) as (page & nk & Hqk & Hs). rewrite Hqk. cbn [next_key].
    destruct Hs as [[-> ->]|(it1 & k' & v' & it2 & Hit & Hne1 & -> & ->)].
    - eexists. split; [reflexivity|]. cbn [concat]. apply app_nil_r.
    - assert (Ho' : ORD = (P ++ it1) ++ (k', v') :: it2).
      { rewrite Ho, Hit, app_assoc. reflexivity. }
      assert (Hk' : k' <> []) by (apply (nonempty_key_at (P ++ it1) k' v' it2); rewrite <- Ho'; exact Hne).
      destruct k' as [|b kt]; [contradiction|].
      change (mk_req (Some k) 0 l ct rv <| pr_key := Some (b :: kt) |>)
        with (mk_req (Some (b :: kt)) 0 l ct rv).
      destruct (IH (P ++ it1) (b :: kt) v' it2 Ho') as (pages & Hf & Hc).
      { intros Happ. apply app_eq_nil in Happ as [? _]. contradiction. }
      { apply (f_equal (@length _)) in Hit. rewrite app_length in Hit. cbn [length] in Hit.
        destruct it1; [contradiction|cbn [length] in Hit; lia]. }
      rewrite Hf. cbn [option_map]. eexists. split; [reflexivity|].
      cbn [concat]. rewrite Hc, Hit, List.filter_app, map_app. reflexivity.
  Qed.

  (* (a) following next_key from an empty key until it comes back empty *)
  Theorem follow_complete :
    exists pages, (forall fuel, (length ORD < fuel)%nat ->
                     follow_keys fuel q (mk_req None 0 l ct rv) = Some pages) /\
                  concat pages = map f' H /\ (length pages <= S (length ORD))%nat.
  Proof.
    assert (Hmain : exists pages, follow_keys (S (length ORD)) q (mk_req None 0 l ct rv) = Some pages /\
                                  concat pages = map f' H).
    { cbn [follow_keys].
      rewrite (proj1 Hq 0 (N.le_0_l _)). cbn [next_key].
      replace (N.to_nat 0) with 0%nat by reflexivity. rewrite skipn_O.
      replace (N.to_nat (0 + L)) with (N.to_nat L) by lia.
      destruct (nth_error H (N.to_nat L)) as [[k' v']|] eqn:Hnth; cbn [option_map fst].
      - destruct (nth_error_split _ _ Hnth) as (H1 & H2 & HH & HlenH1).
        destruct (filter_split h' ORD H1 (k', v') H2 HH) as (P & S & Ho & HP & HS & Hx).
        assert (Hk' : k' <> []) by (apply (nonempty_key_at P k' v' S); rewrite <- Ho; exact Hne).
        destruct k' as [|b kt]; [contradiction|].
        change (mk_req None 0 l ct rv <| pr_key := Some (b :: kt) |>)
          with (mk_req (Some (b :: kt)) 0 l ct rv).
        pose proof limit_ge_1 as HL.
        assert (HPne : P <> []).
        { intros ->. cbn [List.filter] in HP. subst H1. cbn [length] in HlenH1. lia. }
        destruct (follow_from_key (length ORD) P (b :: kt) v' S Ho HPne) as (pages & Hf & Hc).
        { rewrite Ho, app_length. cbn [length]. destruct P; [contradiction|cbn [length]; lia]. }
        rewrite Hf. cbn [option_map]. eexists. split; [reflexivity|].
        cbn [concat]. rewrite Hc, HH.
        replace (N.to_nat L) with (length H1 + 0)%nat by lia.
        rewrite firstn_app_2. cbn [firstn]. rewrite app_nil_r.
        cbn [List.filter]. rewrite Hx, HS, map_app. reflexivity.
      - eexists. split; [reflexivity|]. cbn [concat]. rewrite app_nil_r.
        apply nth_error_None in Hnth. rewrite firstn_all2 by exact Hnth. reflexivity. }
    destruct Hmain as (pages & Hf & Hc). exists pages. split; [|split].
    - intros fuel Hfuel. apply (follow_keys_mono _ _ _ _ Hf). lia.
    - exact Hc.
    - apply (follow_keys_length _ _ _ _ Hf).
  Qed.

  (* (b) stepping the offset by the limit until a page is short *)
  Lemma step_from : forall fuel o, o <= N.of_nat (length H) -> (length H - N.to_nat o < fuel)%nat ->
    exists pages, step_offsets fuel q (mk_req None 0 l ct rv) L o = Some pages /\
                  concat pages = map f' (skipn (N.to_nat o) H).
  Proof.
    pose proof limit_ge_1 as HL.
    induction fuel as [|fuel IH]; intros o Ho Hfuel; [lia|].
    cbn [step_offsets].
    change (mk_req None 0 l ct rv <| pr_offset := o |>) with (mk_req None o l ct rv).
    rewrite (proj1 Hq o Ho).
    rewrite map_length, firstn_length, skipn_length.
    destruct (N.ltb_spec (N.of_nat (Nat.min (N.to_nat L) (length H - N.to_nat o))) L) as [Hshort|Hfull].
    - eexists. split; [reflexivity|]. cbn [concat]. rewrite app_nil_r, last_page by lia. reflexivity.
    - destruct (IH (o + L)) as (pages & Hf & Hc); [lia|lia|].
      rewrite Hf. cbn [option_map]. eexists. split; [reflexivity|].
      cbn [concat]. rewrite Hc. apply page_app.
  Qed.

  Theorem step_complete : forall fuel, (length ORD < fuel)%nat ->
    exists pages, step_offsets fuel q (mk_req None 0 l ct rv) L 0 = Some pages /\ concat pages = map f' H.
  Proof. intros fuel Hfuel. pose proof hits_length_le as HH. apply (step_from fuel 0); lia. Qed.

  (* (b') stepping the offset by the limit until no next_key comes back *)
  Lemma step_nk_from : forall fuel o, o <= N.of_nat (length H) -> (length H - N.to_nat o < fuel)%nat ->
    exists pages, step_offsets_nk fuel q (mk_req None 0 l ct rv) L o = Some pages /\
                  concat pages = map f' (skipn (N.to_nat o) H).
  Proof.
    pose proof limit_ge_1 as HL.
    induction fuel as [|fuel IH]; intros o Ho Hfuel; [lia|].
    cbn [step_offsets_nk].
    change (mk_req None 0 l ct rv <| pr_offset := o |>) with (mk_req None o l ct rv).
    rewrite (proj1 Hq o Ho). cbn [next_key].
    destruct (nth_error H (N.to_nat (o + L))) as [[k' v']|] eqn:Hnth; cbn [option_map fst].
    - assert (Hlt : (N.to_nat (o + L) < length H)%nat) by (apply nth_error_Some; congruence).
      assert (Hk' : k' <> []).
      { apply nth_error_In in Hnth. unfold H in Hnth. apply filter_In in Hnth as [Hin _].
        pose proof Hne as Hn. unfold keys_nonempty in Hn. rewrite List.Forall_forall in Hn. exact (Hn _ Hin). }
      destruct k' as [|b kt]; [contradiction|].
      destruct (IH (o + L)) as (pages & Hf & Hc); [lia|lia|].
      rewrite Hf. cbn [option_map]. eexists. split; [reflexivity|].
      cbn [concat]. rewrite Hc. apply page_app.
    - apply nth_error_None in Hnth.
      eexists. split; [reflexivity|]. cbn [concat]. rewrite app_nil_r, last_page by exact Hnth. reflexivity.
  Qed.

  Theorem step_nk_complete : forall fuel, (length ORD < fuel)%nat ->
    exists pages, step_offsets_nk fuel q (mk_req None 0 l ct rv) L 0 = Some pages /\ concat pages = map f' H.
  Proof. intros fuel Hfuel. pose proof hits_length_le as HH. apply (step_nk_from fuel 0); lia. Qed.

  Theorem serves_complete : pages_completely q l ct rv (length ORD) (map f' H).
  Proof.
    split; [exact follow_complete|]. split; [exact step_complete|]. split; [exact step_nk_complete|].
    intros o Ho Hct. rewrite map_length in *. rewrite (proj1 Hq o Ho), Hct. eexists. eexists. reflexivity.
  Qed.
End Client.

Lemma order_nonempty {V} rv (items : list (key * V)) : keys_nonempty items -> keys_nonempty (order rv items).
Proof. destruct rv; [apply List.Forall_rev|exact id]. Qed.

Lemma ordered_key_nonempty {V} rv (items : list (key * V)) P k v S :
  keys_nonempty items -> order rv items = P ++ (k, v) :: S -> k <> [].
Proof.
  intros Hne Ho. apply (nonempty_key_at P k v S). rewrite <- Ho. apply order_nonempty, Hne.
Qed.

Lemma filtered_serves {V R} (cb : fcallback V R) h f items l ct rv :
  key_sorted items -> keys_nonempty items -> no_wrap items l ->
  hit_independent_of_accumulate cb h f items ->
  serves (order rv items) (fun kv => h (fst kv) (snd kv)) (fun kv => f (fst kv) (snd kv)) l ct rv
         (filtered_paginate cb items).
Proof.
  intros Hs Hne Hw Hcb. unfold no_wrap in Hw. split.
  - intros o Ho. apply (filtered_offset_call cb h f items o l ct rv Hcb); [|lia].
    pose proof (filter_length_le' (fun kv => h (fst kv) (snd kv)) (order rv items)) as Hle.
    rewrite order_length in Hle. lia.
  - intros P k v S Ho HP.
    apply (filtered_key_call cb h f items l ct rv P k v S Hcb Hs (ordered_key_nonempty rv items P k v S Hne Ho));
      [lia|exact Ho|exact HP].
Qed.

Lemma paginate_serves {V R} (cb : callback V R) f items l ct rv :
  key_sorted items -> keys_nonempty items -> no_wrap items l ->
  appends_each cb f items ->
  serves (order rv items) (fun _ => true) (fun kv => f (fst kv) (snd kv)) l ct rv (paginate cb items).
Proof.
  intros Hs Hne Hw Hcb.
  destruct (filtered_serves (good_cb (fun _ _ => true) f) (fun _ _ => true) f items l ct rv Hs Hne Hw)
    as [Hoff Hkey]; [intros k v _ acc; reflexivity|].
  unfold no_wrap in Hw. split.
  - intros o Ho. rewrite (paginate_offset_call cb f items o l ct rv Hcb); [exact (Hoff o Ho)| |lia].
    pose proof (filter_length_le' (fun _ : key * V => true) (order rv items)) as Hle.
    rewrite order_length in Hle. lia.
  - intros P k v S Ho HP.
    rewrite (paginate_key_call cb f items l ct rv P k v S Hcb Hs (ordered_key_nonempty rv items P k v S Hne Ho) Ho HP).
    exact (Hkey P k v S Ho HP).
Qed.

Theorem filtered_paging_complete {V R} (cb : fcallback V R) h f items l ct rv :
  key_sorted items -> keys_nonempty items -> no_wrap items l ->
  hit_independent_of_accumulate cb h f items ->
  pages_completely (filtered_paginate cb items) l ct rv (length items)
    (map (fun kv => f (fst kv) (snd kv)) (order rv (List.filter (fun kv => h (fst kv) (snd kv)) items))).
Proof.
  intros Hs Hne Hw Hcb. rewrite <- order_filter, <- (order_length rv items).
  apply serves_complete; [apply order_nonempty, Hne|apply filtered_serves; assumption].
Qed.

Theorem paginate_paging_complete {V R} (cb : callback V R) f items l ct rv :
  key_sorted items -> keys_nonempty items -> no_wrap items l ->
  appends_each cb f items ->
  pages_completely (paginate cb items) l ct rv (length items)
    (map (fun kv => f (fst kv) (snd kv)) (order rv items)).
Proof.
  intros Hs Hne Hw Hcb.
  rewrite <- (filter_true' (order rv items)), <- (order_length rv items).
  apply serves_complete; [apply order_nonempty, Hne|apply paginate_serves; assumption].
Qed.

(* ------------------------------------------------- handler shapes (Gen/QueryShapes.v) *)

Definition shape_okb (s : query_shape) : bool :=
  negb (qs_hit_depends_on_accumulate s) && negb (qs_appends_unguarded s).

Theorem shape_pages_completely {V R} (s : query_shape) (h : key -> V -> bool) (f : key -> V -> R) items l ct rv :
  shape_okb s = true -> key_sorted items -> keys_nonempty items -> no_wrap items l ->
  pages_completely (run_query s h f items) l ct rv (length items)
    (map (fun kv => f (fst kv) (snd kv)) (order rv (matching s h items))).
Proof.
  intros Hok Hs Hne Hw. unfold shape_okb in Hok. apply andb_prop in Hok as [Hdep _].
  apply negb_true_iff in Hdep.
  unfold run_query, matching, shape_cb. rewrite Hdep. destruct (qs_paginator s).
  - apply (paginate_paging_complete (total_cb f) f items l ct rv Hs Hne Hw). intros k v _. reflexivity.
  - apply (filtered_paging_complete (good_cb h f) h f items l ct rv Hs Hne Hw). intros k v _ acc. reflexivity.
Qed.

Theorem shapes_complete (tbl : list query_shape) :
  forallb shape_okb tbl = true ->
  Forall (fun s => qs_hit_depends_on_accumulate s = false /\ qs_appends_unguarded s = false) tbl /\
  forall s, In s tbl ->
  forall (V R : Type) (h : key -> V -> bool) (f : key -> V -> R) items l ct rv,
    key_sorted items -> keys_nonempty items -> no_wrap items l ->
    pages_completely (run_query s h f items) l ct rv (length items)
      (map (fun kv => f (fst kv) (snd kv)) (order rv (matching s h items))).
Proof.
  intros Hall. rewrite forallb_forall in Hall. split.
  - apply List.Forall_forall. intros s Hin. specialize (Hall s Hin). unfold shape_okb in Hall.
    apply andb_prop in Hall as [H1 H2]. apply negb_true_iff in H1, H2. split; assumption.
  - intros s Hin V R h f items l ct rv. apply shape_pages_completely. apply Hall. exact Hin.
Qed.

(* ------------------------------------------------------------------ refutations *)

(* five entries, every one a hit, page size 2 *)
Definition five : list (key * unit) := [([1], tt); ([2], tt); ([3], tt); ([4], tt); ([5], tt)].
Definition all_hit : key -> unit -> bool := fun _ _ => true.
Definition the_key : key -> unit -> key := fun k _ => k.

(* with the callback shape before commit 629f405: one page of two, no next_key, total = 2;
   offset 2 returns nothing *)
Lemma defect_first_page :
  filtered_paginate (defect_cb all_hit the_key) five (mk_req None 0 2 true false) =
    Ok ([[1]; [2]], mk_resp None 2).
Proof. vm_compute. reflexivity. Qed.

Lemma defect_second_offset :
  filtered_paginate (defect_cb all_hit the_key) five (mk_req None 2 2 true false) = Ok ([], mk_resp None 0).
Proof. vm_compute. reflexivity. Qed.

Lemma defect_follow :
  follow_keys 6 (filtered_paginate (defect_cb all_hit the_key) five) (mk_req None 0 2 true false) =
    Some [[[1]; [2]]].
Proof. vm_compute. reflexivity. Qed.

Lemma defect_steps :
  step_offsets 6 (filtered_paginate (defect_cb all_hit the_key) five) (mk_req None 0 2 true false) 2 0 =
    Some [[[1]; [2]]; []].
Proof. vm_compute. reflexivity. Qed.

Theorem defect_incomplete :
  key_sorted five /\ keys_nonempty five /\ no_wrap five 2 /\
  (* (a) fails *)
  (forall pages, follow_keys 6 (filtered_paginate (defect_cb all_hit the_key) five)
                   (mk_req None 0 2 true false) = Some pages ->
                 concat pages <> map fst five) /\
  (* (b) fails (stepping until a short page) *)
  (forall pages, step_offsets 6 (filtered_paginate (defect_cb all_hit the_key) five)
                   (mk_req None 0 2 true false) 2 0 = Some pages ->
                 concat pages <> map fst five) /\
  (* (c) fails *)
  (forall page resp, filtered_paginate (defect_cb all_hit the_key) five (mk_req None 0 2 true false) =
                       Ok (page, resp) -> total resp <> 5).
Proof.
  split; [unfold key_sorted, five; repeat (constructor; try reflexivity)|].
  split; [unfold keys_nonempty, five; repeat (constructor; try discriminate)|].
  split; [reflexivity|].
  split; [|split].
  - intros pages. rewrite defect_follow. intros [= <-]. vm_compute. discriminate.
  - intros pages. rewrite defect_steps. intros [= <-]. vm_compute. discriminate.
  - intros page resp. rewrite defect_first_page. intros [= <- <-]. vm_compute. discriminate.
Qed.

(* a handler row whose hit depends on accumulate does not page completely *)
Theorem defect_shape_incomplete (s : query_shape) :
  qs_paginator s = UsesFilteredPaginate -> qs_hit_depends_on_accumulate s = true ->
  ~ pages_completely (run_query s all_hit the_key five) 2 true false (length five)
      (map (fun kv => the_key (fst kv) (snd kv)) (order false (matching s all_hit five))).
Proof.
  intros Hp Hd (Ha & _). destruct Ha as (pages & Hf & Hc & _).
  specialize (Hf 6%nat ltac:(cbn; lia)).
  unfold run_query, shape_cb in Hf. rewrite Hp, Hd in Hf.
  change (follow_keys 6 (filtered_paginate (defect_cb all_hit the_key) five) (mk_req None 0 2 true false) = Some pages) in Hf.
  rewrite defect_follow in Hf. injection Hf as <-.
  unfold matching in Hc. rewrite Hp in Hc. vm_compute in Hc. discriminate.
Qed.

(* uint64 wrap-around of end+1 in FilteredPaginate (limit = 2^64-1, first entry not a hit, no count_total):
   the loop stops at the first entry, the page is empty although the second entry matches. *)
Definition two : list (key * bool) := [([1], false); ([2], true)].
Definition flag_hit : key -> bool -> bool := fun _ v => v.
Definition flag_key : key -> bool -> key := fun k _ => k.

Theorem maxlimit_incomplete :
  key_sorted two /\ keys_nonempty two /\
  filtered_paginate (good_cb flag_hit flag_key) two (mk_req None 0 (u64 - 1) false false) =
    Ok ([], mk_resp (Some [1]) 0) /\
  step_offsets 3 (filtered_paginate (good_cb flag_hit flag_key) two) (mk_req None 0 (u64 - 1) false false)
    (u64 - 1) 0 = Some [[]] /\
  (* following next_key still finds it *)
  follow_keys 3 (filtered_paginate (good_cb flag_hit flag_key) two) (mk_req None 0 (u64 - 1) false false) =
    Some [[]; [[2]]].
Proof.
  split; [unfold key_sorted, two; repeat (constructor; try reflexivity)|].
  split; [unfold keys_nonempty, two; repeat (constructor; try discriminate)|].
  split; [vm_compute; reflexivity|]. split; vm_compute; reflexivity.
Qed.
