(* C01, the recipients clause: where coins can arrive.  In one whole operation (any transaction, either block hook with
   all its loop iterations, governance) an account's balance grows only if it is the escrow account, the fee
   collector, the community pool (distribution module), the provider of a stored plan, the node of a stored
   payout or session, the subscriber of a stored subscription or payout -- or, for a swap, the named receiver. *)
From Hub Require Import Base.Prelude Base.Arith Model.Types Model.Keeper Model.Handlers Model.Hooks Model.Step.
From Hub Require Import Proofs.Tactics Proofs.ArithThm Proofs.Effects Proofs.Frames Proofs.Money Proofs.KeysInv Proofs.Lifecycle
  Proofs.Pricing Proofs.Ledger2.

Definition gains (s s' : state) (x : addr) : Prop := exists d, bal s x d < bal s' x d.

Lemma gains_split s y y' x : gains s y' x -> gains s y x \/ gains y y' x.
Proof. intros [d H]. destruct (Z_lt_le_dec (bal s x d) (bal y x d)); [left|right]; exists d; lia. Qed.
Lemma gains_same s s' x : (forall a d, bal s' a d = bal s a d) -> ~ gains s s' x.
Proof. intros E [d H]. rewrite E in H. lia. Qed.
Lemma gains_bank s s' x : bank s' = bank s -> ~ gains s s' x.
Proof. intros E. apply gains_same. intros a d. unfold bal. rewrite E. reflexivity. Qed.
Lemma gains_frame s0 s0' s s' x : bank s0 = bank s -> bank s0' = bank s' -> gains s s' x -> gains s0 s0' x.
Proof. intros E E' [d H]. exists d. unfold bal in *. rewrite E, E'. exact H. Qed.

(* one transfer: only the recipient can gain *)
Lemma moved_gain f t d amt x d' : 0 <= amt -> 0 < moved f t d amt x d' -> x = t.
Proof. unfold moved, delta. intros Ha H. repeat case_bool_decide; first [lia | intuition congruence]. Qed.

Lemma gains_transfer s s' f t d amt r v x : transfer s s' f t d amt r v -> gains s s' x -> x = t.
Proof.
  intros T [d' H]. rewrite (transfer_bal _ _ _ _ _ _ _ _ T) in H.
  apply (moved_gain f t d amt x d' (tr_amt _ _ _ _ _ _ _ _ T)). lia.
Qed.

Lemma gains_moved2 s s' f t1 t2 d a1 a2 x :
  0 <= a1 -> 0 <= a2 -> (forall a d', bal s' a d' = bal s a d' + moved f t1 d a1 a d' + moved f t2 d a2 a d') ->
  gains s s' x -> x = t1 \/ x = t2.
Proof.
  intros H1 H2 E [d' H]. rewrite E in H.
  destruct (Z_lt_le_dec 0 (moved f t1 d a1 x d')) as [G|G]; [left; exact (moved_gain f t1 d a1 x d' H1 G)|].
  right. apply (moved_gain f t2 d a2 x d' H2). lia.
Qed.

(** * who may receive coins, seen from a state *)

Definition recipient (s : state) (x : addr) : Prop :=
  x = c_deposit (cfg s) \/ x = c_feecoll (cfg s) \/ x = c_distr (cfg s) \/
  (exists id p, get_plan s id = Some p /\ pl_prov p = x) \/
  (exists id po, payouts s !! id = Some po /\ (po_node po = x \/ po_addr po = x)) \/
  (exists id y, sessions s !! id = Some y /\ ss_node y = x) \/
  (exists id sb, subs s !! id = Some sb /\ sb_addr sb = x).

Lemma recipient_plan s id p : get_plan s id = Some p -> recipient s (pl_prov p).
Proof. intros H. right; right; right; left. eauto. Qed.
Lemma recipient_payout_node s id po : payouts s !! id = Some po -> recipient s (po_node po).
Proof. intros H. right; right; right; right; left. eauto. Qed.
Lemma recipient_payout_addr s id po : payouts s !! id = Some po -> recipient s (po_addr po).
Proof. intros H. right; right; right; right; left. eauto. Qed.
Lemma recipient_session s id y : sessions s !! id = Some y -> recipient s (ss_node y).
Proof. intros H. right; right; right; right; right; left. eauto. Qed.
Lemma recipient_sub s id sb : subs s !! id = Some sb -> recipient s (sb_addr sb).
Proof. intros H. right; right; right; right; right; right. eauto. Qed.

(* records keep their parties, so a recipient of a later state of the same operation was one at its start *)
Lemma recipient_evo s y x :
  cfg y = cfg s -> plan_act y = plan_act s -> plan_inact y = plan_inact s -> sub_evo s y -> sess_evo s y ->
  recipient y x -> recipient s x.
Proof.
  intros Ec Ea Ei [_ Es Ep] [_ Ess] H. unfold recipient in H. rewrite Ec in H.
  destruct H as [H|[H|[H|[(id & p & Hp & <-)|[(id & po & Hpo & E)|[(id & z & Hz & <-)|(id & sb & Hsb & <-)]]]]]];
    [unfold recipient; auto..| | | |].
  - apply (recipient_plan s id). unfold get_plan in *. rewrite Ea, Ei in Hp. exact Hp.
  - destruct (Ep _ _ Hpo) as (po0 & Hpo0 & (_ & A1 & A2 & _)).
    destruct E as [<-| <-].
    + replace (po_node po) with (po_node po0) by congruence. exact (recipient_payout_node s id po0 Hpo0).
    + replace (po_addr po) with (po_addr po0) by congruence. exact (recipient_payout_addr s id po0 Hpo0).
  - destruct (Ess _ _ Hz) as (z0 & Hz0 & (_ & _ & A & _)).
    replace (ss_node z) with (ss_node z0) by congruence. exact (recipient_session s id z0 Hz0).
  - destruct (Es _ _ Hsb) as (sb0 & Hsb0 & (_ & A & _)).
    replace (sb_addr sb) with (sb_addr sb0) by congruence. exact (recipient_sub s id sb0 Hsb0).
Qed.

(** * the loop iterations of the hooks *)

Lemma flow_payout_step s e s' x : payout_step s e = Ok s' -> gains s s' x -> recipient s x.
Proof.
  intros H G. destruct (payout_split _ _ _ H) as (po & fee & Hpo & _ & Hfee & E).
  assert (F1 : 0 <= fee) by lia. assert (F2 : 0 <= (po_price po).2 - fee) by lia.
  destruct (gains_moved2 _ _ _ _ _ _ _ _ _ F1 F2 E G) as [->| ->]; [unfold recipient; auto|].
  exact (recipient_payout_node s e.2 po Hpo).
Qed.

Lemma flow_session_expire_one s e s' x : session_expire_one s e = Ok s' -> gains s s' x -> recipient s x.
Proof.
  intros H G. destruct (session_expire_one_effect _ _ _ H) as (z & Hz & [[_ ->]|(_ & _ & s1 & Hh & ->)]).
  - exfalso. exact (gains_bank s _ x eq_refl G).
  - apply (gains_frame _ s1 _ _ _ eq_refl eq_refl) in G.
    destruct (settlement_split _ _ _ _ _ _ Hh) as [Eq|(dn & pay & fee & _ & Hfee & Eq)].
    + exfalso. exact (gains_same _ _ _ Eq G).
    + assert (F1 : 0 <= fee) by lia. assert (F2 : 0 <= pay - fee) by lia.
      destruct (gains_moved2 _ _ _ _ _ _ _ _ _ F1 F2 Eq G) as [->| ->]; [unfold recipient; simpl; auto|].
      exact (recipient_session s e.2 z Hz).
Qed.

Lemma gains_refunded s sb a c s' x : refunded s sb a c s' -> gains s s' x -> x = a.
Proof.
  intros (_ & s0 & H0 & ->) G. apply (gains_frame s s0) in G; [|reflexivity..].
  exact (gains_transfer _ _ _ _ _ _ _ _ _ (z_dep_to_account_transfer _ _ _ _ _ H0) G).
Qed.

Lemma flow_sub_refund s sb s' x :
  sub_refund s sb = Ok s' -> gains s s' x ->
  x = sb_addr sb \/ exists po, payouts s !! sb_id sb = Some po /\ po_addr po = x.
Proof.
  intros H G. apply sub_refund_effect in H.
  destruct (sb_kind sb) as [n g h dep|]; [|exfalso; subst s'; exact (gains_bank _ _ _ eq_refl G)].
  destruct H as (s1 & H1 & H2). destruct (gains_split _ s1 _ _ G) as [Ga|Gb].
  - left. destruct (g =? 0); [exfalso; subst s1; exact (gains_bank _ _ _ eq_refl Ga)|].
    destruct H1 as (al & paid & _ & _ & _ & R). exact (gains_refunded _ _ _ _ _ _ R Ga).
  - destruct (h =? 0); [exfalso; subst s'; exact (gains_bank _ _ _ eq_refl Gb)|].
    destruct H2 as (po & Hpo & R). right. exists po. split; [|symmetry; exact (gains_refunded _ _ _ _ _ _ R Gb)].
    destruct (g =? 0); [subst s1; exact Hpo|]. destruct H1 as (al & paid & _ & _ & _ & R1).
    destruct (refunded_spec _ _ _ _ _ R1) as (_ & _ & _ & _ & Ep). rewrite <- Ep. exact Hpo.
Qed.

Lemma flow_sub_expire_one s e s' x : kinv s -> sub_expire_one s e = Ok s' -> gains s s' x -> recipient s x.
Proof.
  intros Hi H G. destruct (sub_expire_one_effect _ _ _ H) as (sb & Hsb & [(_ & s1 & H1 & H2)|(_ & s1 & H1 & H2)]).
  - exfalso. apply (gains_bank s s' x); [|exact G]. apply detach_payout_keeps in H2; [|discriminate].
    rewrite (keeps_bank _ _ _ H2 eq_refl), (keeps_bank _ _ _ (sub_make_pending_keeps s1 sb) eq_refl).
    exact (keeps_bank _ _ _ (sub_pending_hook_keeps _ _ _ H1) eq_refl).
  - apply (gains_frame (sub_unqueue s sb) s1) in G; [|reflexivity|].
    2: { rewrite (keeps_bank _ _ _ (sub_delete_payout_keeps _ _ _ H2) eq_refl). exact (eq_sym (keeps_bank _ _ _ (sub_cleanup_keeps s1 sb) eq_refl)). }
    destruct (flow_sub_refund _ _ _ _ H1 G) as [->|(po & Hpo & <-)].
    + exact (recipient_sub s e.2 sb Hsb).
    + exact (recipient_payout_addr s (sb_id sb) po Hpo).
Qed.

(** * transactions *)

Lemma flow_fund_pool s a c s' x : fund_pool s a c = Ok s' -> gains s s' x -> x = c_distr (cfg s).
Proof. intros H. exact (gains_transfer _ _ _ _ _ _ _ _ _ (fund_pool_transfer _ _ _ _ a H)). Qed.

Lemma flow_create_sub_for_node s acc nd g h dn s' id x :
  create_sub_for_node s acc nd g h dn = Ok (s', id) -> gains s s' x -> x = c_deposit (cfg s).
Proof.
  intros H G. destruct (create_sub_for_node_effect _ _ _ _ _ _ _ _ H) as (n & inact & dep & s1 & _ & _ & _ & H1 & _ & ->).
  apply (gains_frame s s1 _ _ _ eq_refl eq_refl) in G.
  exact (gains_transfer _ _ _ _ _ _ _ _ _ (z_dep_add_transfer _ _ _ _ H1) G).
Qed.

Lemma flow_create_sub_for_plan s acc pid dn s' id x :
  create_sub_for_plan s acc pid dn = Ok (s', id) -> gains s s' x ->
  x = c_feecoll (cfg s) \/ exists p, get_plan s pid = Some p /\ pl_prov p = x.
Proof.
  intros H G. destruct (plan_subscribe_pays _ _ _ _ _ _ H) as (p & price & fee & Hp & _ & _ & _ & Hfee & E).
  assert (F1 : 0 <= fee) by lia. assert (F2 : 0 <= price - fee) by lia.
  destruct (gains_moved2 _ _ _ _ _ _ _ _ _ F1 F2 E G) as [->| ->]; [left; reflexivity|right; eauto].
Qed.

Lemma flow_handle s m s' x :
  handle s m = Ok s' -> gains s s' x ->
  recipient s x \/ (exists from hash receiver amount, m = MSwap from hash receiver amount /\ x = ta_bytes receiver).
Proof.
  intros H G. pose proof (handle_frame _ _ _ H) as Hk.
  destruct m; simpl in H; try (exfalso; exact (gains_bank _ _ _ (keeps_bank _ _ _ Hk eq_refl) G)); clear Hk.
  - (* provider registration: the deposit goes to the community pool *)
    left. destruct (h_prov_register_effect _ _ _ _ _ _ _ H) as (s1 & _ & H1 & ->).
    apply (gains_frame s s1 _ _ _ eq_refl eq_refl) in G. rewrite (flow_fund_pool _ _ _ _ _ H1 G). unfold recipient. auto.
  - (* node registration *)
    left. destruct (h_node_register_effect _ _ _ _ _ _ H) as (s1 & _ & _ & _ & H1 & ->).
    apply (gains_frame s s1 _ _ _ eq_refl eq_refl) in G. rewrite (flow_fund_pool _ _ _ _ _ H1 G). unfold recipient. auto.
  - (* node subscription: into the escrow *)
    left. destruct (h_node_subscribe_effect _ _ _ _ _ _ _ H) as (s1 & sid & _ & _ & H1 & ->).
    apply (gains_frame s s1 _ _ _ eq_refl eq_refl) in G.
    rewrite (flow_create_sub_for_node _ _ _ _ _ _ _ _ _ H1 G). unfold recipient. auto.
  - (* plan subscription: fee collector and the plan's provider *)
    left. destruct (h_plan_subscribe_effect _ _ _ _ _ H) as (s1 & sid & H1 & ->).
    apply (gains_frame s s1 _ _ _ eq_refl eq_refl) in G.
    destruct (flow_create_sub_for_plan _ _ _ _ _ _ _ H1 G) as [->|(p & Hp & <-)]; [unfold recipient; auto|].
    exact (recipient_plan _ _ _ Hp).
  - (* swap: minted to the swap module and passed on to the receiver *)
    right. destruct (h_swap_effect _ _ _ _ _ _ H) as (s1 & s2 & _ & _ & _ & _ & H1 & H2 & E).
    exists from, hash, receiver, amount. split; [reflexivity|].
    apply (gains_frame s s2) in G; [|reflexivity|rewrite E; reflexivity].
    apply bank_send_to_account_inv in H2 as [_ H2]. destruct G as [d Hd].
    rewrite (mint_send_bal _ _ _ _ _ _ _ H1 H2) in Hd. unfold delta in Hd.
    case_bool_decide as Ht; [symmetry; apply Ht|lia].
Qed.

(** * loops, hooks, one whole operation *)

Definition flow_inv (s y : state) : Prop :=
  kinv y /\ sess_evo s y /\ sub_evo s y /\ cfg y = cfg s /\ plan_act y = plan_act s /\ plan_inact y = plan_inact s /\
  forall x, gains s y x -> recipient s x.

Lemma flow_inv_refl s : kinv s -> flow_inv s s.
Proof.
  intros Hi. split; [exact Hi|]. split; [apply sess_evo_refl|]. split; [apply sub_evo_refl|]. repeat (split; [reflexivity|]).
  intros x [d H]. lia.
Qed.

Lemma flow_inv_step s a b :
  flow_inv s a -> kinv b -> sess_evo a b -> sub_evo a b -> cfg b = cfg a -> plan_act b = plan_act a -> plan_inact b = plan_inact a ->
  (forall x, gains a b x -> recipient a x) -> flow_inv s b.
Proof.
  intros (Ka & Sa & Ua & Ca & Pa & Pi & Ga) Kb Sb Ub Cb Pb Pib Gb.
  split; [exact Kb|]. split; [eapply sess_evo_trans; eauto|]. split; [eapply sub_evo_trans; eauto|].
  split; [congruence|]. split; [congruence|]. split; [congruence|].
  intros x G. destruct (gains_split _ a _ _ G) as [G1|G2]; [apply Ga; exact G1|].
  eapply recipient_evo; [exact Ca|exact Pa|exact Pi|exact Ua|exact Sa|apply Gb; exact G2].
Qed.

Lemma flow_rfold {A} T (f : state -> A -> res state) l : touched GPl T = false -> forall s s',
  kinv s ->
  (forall a e b, kinv a -> f a e = Ok b ->
     keeps T a b /\ kinv b /\ sess_evo a b /\ sub_evo a b /\ forall x, gains a b x -> recipient a x) ->
  rfold f l s = Ok s' -> flow_inv s s'.
Proof.
  intros Tp s s' Hi Hf H. eapply (rfold_inv (flow_inv s)); [|apply flow_inv_refl; exact Hi|exact H].
  intros a e b Ha Hstep. destruct (Hf a e b (proj1 Ha) Hstep) as (K & Kb & S & U & G).
  destruct (keeps_plan _ _ _ K Tp) as (P1 & P2 & _). pose proof (keeps_cfg _ _ _ K) as C. eapply flow_inv_step; eauto.
Qed.

Lemma flow_sub_begin_block s s' : kinv s -> sub_begin_block s = Ok s' -> flow_inv s s'.
Proof.
  intros Hi H. unfold sub_begin_block in H. refine (flow_rfold [GBank; GDep; GSub] _ _ eq_refl _ _ Hi _ H).
  intros a e b Ka Hs. pose proof (payout_step_keeps _ _ _ Hs) as K. split; [exact K|].
  split; [eapply kinv_payout_step_full; eauto|].
  split; [destruct (keeps_sess _ _ _ K eq_refl) as (K1 & K2 & _); exact (sess_evo_frame _ _ K1 K2)|].
  split; [eapply evo_payout_step; [apply Ka|exact Hs]|]. intros x G. eapply flow_payout_step; eauto.
Qed.

Lemma flow_session_end_block s s' : kinv s -> session_end_block s = Ok s' -> flow_inv s s'.
Proof.
  intros Hi H. unfold session_end_block in H. refine (flow_rfold [GBank; GDep; GSub; GSess] _ _ eq_refl _ _ Hi _ H).
  intros a e b Ka Hs. split; [exact (session_expire_one_keeps _ _ _ Hs)|].
  split; [eapply kinv_session_expire_one; eauto|]. split; [eapply evo_session_expire_one; [apply Ka|exact Hs]|].
  split; [eapply evo_session_expire_one_sub; eauto|]. intros x G. eapply flow_session_expire_one; eauto.
Qed.

Lemma flow_sub_end_block s s' : kinv s -> sub_end_block s = Ok s' -> flow_inv s s'.
Proof.
  intros Hi H. unfold sub_end_block in H. refine (flow_rfold [GBank; GDep; GSub; GSess] _ _ eq_refl _ _ Hi _ H).
  intros a e b Ka Hs. split; [exact (sub_expire_one_keeps _ _ _ Hs)|].
  split; [eapply kinv_sub_expire_one; eauto|]. split; [eapply evo_sub_expire_one_sess; eauto|].
  split; [eapply evo_sub_expire_one; [apply Ka|exact Hs]|]. intros x G. eapply flow_sub_expire_one; eauto.
Qed.

(* a state that differs only outside bank, plans, subscriptions, payouts and sessions has the same recipients and balances *)
Lemma flow_inv_frame T s a y :
  keeps T s a -> touched GBank T = false -> touched GPl T = false -> touched GSub T = false -> touched GSess T = false ->
  flow_inv a y -> (forall x, gains s y x -> recipient s x) /\ cfg y = cfg s.
Proof.
  intros K Tb Tp Ts Tss (_ & Sy & Uy & Cy & Py & Piy & Gy).
  destruct (keeps_plan _ _ _ K Tp) as (Ea & Ei & _). pose proof (keeps_cfg _ _ _ K) as Ec. pose proof (keeps_bank _ _ _ K Tb) as Eb.
  destruct (keeps_sub _ _ _ K Ts) as (_ & Es & _ & _ & _ & _ & _ & Ep & _).
  destruct (keeps_sess _ _ _ K Tss) as (_ & Ess & _). split; [|congruence].
  intros x G. apply (gains_frame a y) in G; [|exact Eb|reflexivity].
  specialize (Gy x G). unfold recipient in *. unfold get_plan in *. rewrite Ec, Ea, Ei, Es, Ep, Ess in Gy. exact Gy.
Qed.

Definition flow_ok (s : state) (o : op) (x : addr) : Prop :=
  recipient s x \/ (exists from hash receiver amount, o = OTx (MSwap from hash receiver amount) /\ x = ta_bytes receiver).

Theorem flow_step s o s' x : kinv s -> step s o = OOk s' -> gains s s' x -> flow_ok s o x.
Proof.
  intros Hi H G. apply step_inv in H. destruct o.
  - (* begin-of-block: hourly payouts *)
    left. apply begin_block_effect in H as (s1 & Hm & H).
    assert (Km : keeps [GNow; GMint] s s1).
    { eapply keeps_trans; [|apply mint_begin_block_keeps in Hm; weaken_to Hm]. pose proof (keeps_begin s t) as K0. weaken_to K0. }
    pose proof (flow_sub_begin_block _ _ (kinv_other _ _ _ Km eq_refl eq_refl eq_refl eq_refl eq_refl Hi) H) as F.
    exact (proj1 (flow_inv_frame _ _ _ _ Km eq_refl eq_refl eq_refl eq_refl F) x G).
  - (* a transaction *)
    destruct H as [_ H]. apply (gains_frame (clear_events s) s') in G; [|reflexivity..].
    destruct (flow_handle _ _ _ _ H G) as [R|(from & hash & receiver & amount & -> & ->)]; [left; exact R|right; exists from, hash, receiver, amount; split; reflexivity].
  - (* governance moves no coins *)
    exfalso. destruct H as [_ ->]. eapply (gains_bank s _ x); [|exact G].
    apply (fold_left_inv (fun y => bank y = bank s)); [|reflexivity]. intros y c Hy. rewrite <- Hy.
    exact (keeps_bank _ _ _ (apply_pchange_keeps y c) eq_refl).
  - (* end-of-block: settlements and refunds *)
    left. destruct H as (y & H & ->). apply end_block_effect in H as (s1 & s2 & H1 & H2 & H3).
    pose proof (kinv_node_end_block _ _ (kinv_clear _ Hi) H1) as K1.
    assert (Kn : keeps [GNode] s s1).
    { eapply keeps_trans; [|exact (node_end_block_keeps _ _ H1)]. pose proof (keeps_clear s) as K0. weaken_to K0. }
    pose proof (flow_session_end_block _ _ K1 H2) as F2. destruct (flow_sub_end_block _ _ (proj1 F2) H3) as (K3 & S3 & U3 & C3 & P3 & Pi3 & G3).
    pose proof (flow_inv_step _ _ _ F2 K3 S3 U3 C3 P3 Pi3 G3) as F.
    apply (gains_frame s y) in G; [|reflexivity..].
    exact (proj1 (flow_inv_frame _ _ _ _ Kn eq_refl eq_refl eq_refl eq_refl F) x G).
Qed.
