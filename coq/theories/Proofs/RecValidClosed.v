(* C12: for every state reachable inside the configuration domain the exported genesis passes every module's Validate,
   and re-imports (GenesisReach.v) to the same records and indices. *)
From Hub Require Import Base.Prelude Base.Arith Model.Types Model.Keeper Model.Handlers Model.Hooks Model.Step Model.Genesis.
From Hub Require Import Proofs.Tactics Proofs.Frames Proofs.KeysInv Proofs.IndexAll Proofs.Link Proofs.Range Proofs.GenesisRT Proofs.GenesisReach Proofs.RecValid.

Definition wf_genesis_rec (g : genesis) : Prop :=
  tzero < g_time g /\ params_valid (g_params g) /\ forall it, it ∈ g_inflations g -> validate_inflation it = true.

Lemma rec_init g : wf_genesis_rec g -> rec_inv (init g).
Proof.
  intros (Ht & Hp & Hinf). pose proof (init_keeps g) as K.
  destruct (keeps_pv _ _ _ K eq_refl) as [E3 E4]. destruct (keeps_plan _ _ _ K eq_refl) as (E7 & E8 & _).
  split.
  - unfold init. destruct (g_mint g) as [[[mx mn] rc] inf]. exact Ht.
  - intros a c. rewrite (keeps_dep _ _ _ K eq_refl). simpl. rewrite lookup_empty. discriminate.
  - intros p [[a H]|[a H]]; [rewrite E3 in H|rewrite E4 in H]; simpl in H; rewrite lookup_empty in H; discriminate.
  - intros n Hn. apply (stored_node_keeps _ _ _ _ K eq_refl) in Hn as [[a H]|[a H]]; simpl in H; rewrite lookup_empty in H; discriminate.
  - intros p [[a H]|[a H]]; [rewrite E7 in H|rewrite E8 in H]; simpl in H; rewrite lookup_empty in H; discriminate.
  - intros id x. rewrite (keeps_sessions _ _ _ K eq_refl). simpl. rewrite lookup_empty. discriminate.
  - intros h w. rewrite (keeps_swap _ _ _ K eq_refl). simpl. rewrite lookup_empty. discriminate.
  - intros t i. rewrite init_inflations. intros Hl. apply elem_of_list_to_map_2, elem_of_list_fmap in Hl as (x & Heq & Hin). injection Heq as -> ->. apply Hinf. exact Hin.
  - rewrite (proj1 (keeps_par _ _ _ K eq_refl)). exact Hp.
Qed.

Theorem rec_run ops : forall s i s', kinv s -> rec_inv s -> wf_hist wf_op_rec s ops -> run_from s ops i = RunOk s' -> rec_inv s'.
Proof.
  induction ops as [|o ops IH]; simpl; intros s i s' Hi Hr Hwf H.
  - injection H as <-. exact Hr.
  - destruct Hwf as [Hw1 Hw2]. destruct (step s o) as [s1| |] eqn:E; try discriminate.
    + eapply IH; [eapply kinv_step; eauto|eapply rec_step; eauto|exact Hw2|exact H].
    + eapply IH; [apply kinv_clear; exact Hi|apply rec_clear; exact Hr|exact Hw2|exact H].
Qed.

(* The exported genesis of every state reachable inside the domain is VALID (every module's section passes its Validate)
   and the round trip is defined; what it re-imports to is GenesisReach.reachable_roundtrip. *)
Theorem reachable_export_valid g ops s :
  wf_genesis_rec g -> wf_hist wf_op_rec (init g) ops -> run (init g) ops = RunOk s ->
  exists v s', roundtrip s = Ok (v, s') /\ verdict_ok v = true.
Proof.
  intros Hg Hwf Hrun.
  pose proof (rec_run ops (init g) 0%nat s (kinv_init g) (rec_init g Hg) Hwf Hrun) as [T D P N L S W I Q].
  pose proof (reachable_genesis_defined g ops s Hrun) as Hd.
  exists (validate (doc_of s)), (imported (doc_of s) (fresh_like s)). split; [exact (roundtrip_closed s Hd)|].
  destruct Q as (Q1 & Q2 & Q3 & Q4 & Q5). pose proof Hd as (Hp & Hn & Hl & _).
  pose proof (store_inv_run ops (init g) 0%nat s (kinv_init g) (store_inv_init g) Hrun) as Hst.
  unfold verdict_ok.
  rewrite (val_deposit s D), (val_provider s Hp P Q1), (val_node s Hn N Q2), (val_plan s Hl L), (val_subscription s Q3),
    (val_session s (reach_sess_store g ops s Hrun) S Q4), (val_swap s (si_swaps _ Hst) W Q5), (val_mint s (si_infl _ Hst) I).
  reflexivity.
Qed.
