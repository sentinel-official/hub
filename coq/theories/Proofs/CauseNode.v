(* C04 (run level, nodes): an active node stops being active, across one whole operation, only by its own
   MsgUpdateStatus or in the end-blocker of a block at or after the end of its lease. *)
From Hub Require Import Base.Prelude Base.Arith Model.Types Model.Keeper Model.Handlers Model.Hooks Model.Step.
From Hub Require Import Proofs.Tactics Proofs.Effects Proofs.Sorting Proofs.Frames Proofs.KeysInv Proofs.Lifecycle Proofs.Auth Proofs.IndexNode Proofs.IndexAll Proofs.Link.

(* the node end-blocker (price sweep + lease expiry) keeps every node active whose lease has not run out *)
Lemma node_end_block_keeps_leased s s' a n :
  kinv s -> idx_node s -> node_end_block s = Ok s' -> node_act s !! a = Some n -> now s < nd_inactive_at n ->
  is_Some (node_act s' !! a).
Proof.
  intros Hi Hix H Hn Hlt. unfold node_end_block in H. apply rbind_ok in H as (s1 & Hsw & H).
  destruct (node_sweep_part _ _ Hi Hix Hsw) as (Hk1 & Hix1 & Hn1 & Ha1). specialize (Ha1 a).
  assert (Hact : act_iat s a = Some (nd_inactive_at n)) by (apply act_iat_spec; eauto).
  rewrite Hact in Ha1. destruct (proj1 (act_iat_spec s1 a _) Ha1) as (n1 & Hn1a & Hiat1).
  destruct (node_expire_loop (fun rest y => (forall e, e ∈ rest -> e.2 <> a) /\ node_act y !! a = node_act s1 !! a)
              (due_a (node_q s1) (now s1)) s1 s' Hk1 Hix1 (NoDup_due_a _ _) ltac:(intros e He; apply elem_of_due_a in He; tauto) H) as (_ & _ & _ & Hsame).
  - split; [|reflexivity]. intros [t b] He Eb. simpl in Eb. subst b. apply elem_of_due_a in He as [Hq Hle]. simpl in Hle.
    apply Hix1 in Hq. rewrite Ha1 in Hq. injection Hq as <-. lia.
  - intros b rest y y' m _ _ M2 [Hne Hsame]. split; [intros e He; apply Hne; right; exact He|].
    rewrite M2, lookup_delete_ne; [exact Hsame|]. exact (Hne _ ltac:(left)).
  - rewrite Hsame, Hn1a. eauto.
Qed.

Theorem node_deactivation_cause s o s' a n :
  life_inv s -> step s o = OOk s' -> node_act s !! a = Some n -> node_act s' !! a = None ->
  (exists from, o = OTx (MNodeUpdateStatus from SInactive) /\ ta_bytes from = a) \/ (o = OEnd /\ nd_inactive_at n <= now s).
Proof.
  intros Hl Hstep Hn Hnone. pose proof (ai_k _ (lf_idx _ Hl)) as Hi. pose proof (ai_node _ (lf_idx _ Hl)) as Hix.
  destruct o.
  - exfalso. apply step_inv in Hstep.
    destruct (keeps_node _ _ _ (begin_block_keeps _ _ Hstep) eq_refl) as (E & _). rewrite E in Hnone. simpl in Hnone. congruence.
  - destruct (step_tx_ok _ _ _ Hstep) as [Hv H].
    destruct (touched GNode (msg_groups m)) eqn:Ht.
    2:{ exfalso. destruct (keeps_node _ _ _ (handle_frame _ _ _ H) Ht) as (E & _). rewrite E in Hnone. simpl in Hnone. congruence. }
    destruct m; try discriminate Ht; simpl in H.
    + (* register *) exfalso. destruct (decide (a = ta_bytes from)) as [->|Hne].
      * destruct (h_node_register_effect _ _ _ _ _ _ H) as (s1 & _ & _ & Hh & _). apply bool_decide_eq_false in Hh. apply Hh.
        unfold get_node. simpl. rewrite Hn. eauto.
      * destruct (auth_node_register_isolated _ _ _ _ _ _ _ Hstep a Hne) as [E _]. rewrite E, Hn in Hnone. discriminate.
    + (* update details: the status is kept *) exfalso. destruct (decide (a = ta_bytes from)) as [->|Hne].
      * unfold h_node_update_details in H. apply rbind_ok in H as (u1 & _ & H). apply rbind_ok in H as (u2 & _ & H).
        unfold get_node in H. simpl in H. rewrite Hn in H. apply rbind_ok in H as (s1 & Hs & H). injection H as <-.
        destruct (k_na _ (ki_node _ Hi) _ _ Hn) as [Ea Est]. unfold set_node in Hs. simpl in Hs. rewrite Est in Hs. injection Hs as <-.
        simpl in Hnone. rewrite Ea, lookup_insert in Hnone. discriminate.
      * destruct (auth_node_update_details_isolated _ _ _ _ _ _ _ Hi Hstep a Hne) as [E _]. rewrite E, Hn in Hnone. discriminate.
    + (* update status: the node's own request *)
      destruct (decide (a = ta_bytes from)) as [->|Hne].
      * left. exists from. split; [|reflexivity]. f_equal. f_equal.
        simpl in Hv. apply andb_true_iff in Hv as [_ Hst]. apply bool_decide_eq_true in Hst. destruct Hst as [->| ->]; [|reflexivity].
        exfalso. destruct (h_node_update_status_effect _ _ _ _ H) as (n0 & Hn0 & _ & ->).
        unfold get_node in Hn0. simpl in Hn0. rewrite Hn in Hn0. injection Hn0 as <-.
        destruct (k_na _ (ki_node _ Hi) _ _ Hn) as [Ea Est]. simpl in Hnone. rewrite Ea, lookup_insert in Hnone. discriminate.
      * exfalso. destruct (auth_node_update_status_isolated _ _ _ _ Hi Hstep a Hne) as [E _]. rewrite E, Hn in Hnone. discriminate.
  - exfalso. apply step_inv in Hstep as [_ ->].
    destruct (keeps_node _ _ _ (fold_pchange_keeps cs (clear_events s)) eq_refl) as (E & _). rewrite E in Hnone. simpl in Hnone. congruence.
  - right. split; [reflexivity|]. apply step_inv in Hstep as (y & H & ->).
    apply end_block_effect in H as (s1 & s2 & H1 & H2 & H3).
    destruct (Z_lt_le_dec (now s) (nd_inactive_at n)) as [Hlt|Hle]; [exfalso|exact Hle].
    destruct (node_end_block_keeps_leased (clear_events s) s1 a n (kinv_clear _ Hi) ltac:(eapply idx_node_frame; [..|exact Hix]; reflexivity) H1 Hn Hlt) as [n1 Hn1].
    destruct (keeps_node _ _ _ (session_end_block_keeps _ _ H2) eq_refl) as (E2 & _).
    destruct (keeps_node _ _ _ (sub_end_block_keeps _ _ H3) eq_refl) as (E3 & _).
    simpl in Hnone. rewrite E3, E2, Hn1 in Hnone. discriminate.
Qed.

