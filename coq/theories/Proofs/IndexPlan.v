(* C09 / C18: the plan indices ([idx_plan] of InvDefs.v) are an invariant: the provider index
   is exactly the image of the plans (both status partitions), every plan/node link points at
   a stored plan and a registered node, every plan belongs to a registered provider and has
   positive duration and quota -- preserved by every operation, true at genesis. *)
From Hub Require Import Base.Prelude Base.Arith Model.Types Model.Keeper Model.Handlers Model.Hooks Model.Step.
From Hub Require Import Proofs.Tactics Proofs.Effects Proofs.Frames Proofs.KeysInv Proofs.InvDefs.

(** * registered nodes and providers only grow *)

Definition node_le (s s' : state) : Prop := forall a, is_Some (get_node s a) -> is_Some (get_node s' a).
Definition prov_le (s s' : state) : Prop := forall a, is_Some (get_provider s a) -> is_Some (get_provider s' a).

Lemma node_le_refl s : node_le s s.
Proof. intros a H. exact H. Qed.
Lemma node_le_trans a b c : node_le a b -> node_le b c -> node_le a c.
Proof. intros H1 H2 x Hx. apply H2, H1, Hx. Qed.
Lemma prov_le_refl s : prov_le s s.
Proof. intros a H. exact H. Qed.
Lemma prov_le_trans a b c : prov_le a b -> prov_le b c -> prov_le a c.
Proof. intros H1 H2 x Hx. apply H2, H1, Hx. Qed.

Lemma get_node_frame s s' : node_act s' = node_act s -> node_inact s' = node_inact s -> forall a, get_node s' a = get_node s a.
Proof. intros E1 E2 a. unfold get_node. rewrite E1, E2. reflexivity. Qed.
Lemma get_provider_frame s s' :
  prov_act s' = prov_act s -> prov_inact s' = prov_inact s -> forall a, get_provider s' a = get_provider s a.
Proof. intros E1 E2 a. unfold get_provider. rewrite E1, E2. reflexivity. Qed.
Lemma get_plan_frame s s' : plan_act s' = plan_act s -> plan_inact s' = plan_inact s -> forall id, get_plan s' id = get_plan s id.
Proof. intros E1 E2 a. unfold get_plan. rewrite E1, E2. reflexivity. Qed.

Lemma node_le_frame s s' : node_act s' = node_act s -> node_inact s' = node_inact s -> node_le s s'.
Proof. intros E1 E2 a. rewrite (get_node_frame s s' E1 E2). auto. Qed.
Lemma prov_le_frame s s' : prov_act s' = prov_act s -> prov_inact s' = prov_inact s -> prov_le s s'.
Proof. intros E1 E2 a. rewrite (get_provider_frame s s' E1 E2). auto. Qed.

Lemma node_le_keeps T s s' : keeps T s s' -> touched GNode T = false -> node_le s s'.
Proof.
  intros (_ & _ & _ & _ & _ & _ & K & _) Ht. rewrite Ht in K. simpl in K. apply node_le_frame; tauto.
Qed.
Lemma prov_le_keeps T s s' : keeps T s s' -> touched GPv T = false -> prov_le s s'.
Proof.
  intros (_ & _ & _ & _ & K & _) Ht. rewrite Ht in K. simpl in K. apply prov_le_frame; tauto.
Qed.

(* a record written by [set_node] after its old copy was (possibly) removed from either partition *)
Lemma node_le_set s0 s n s' :
  set_node s n = Ok s' ->
  (forall b, b <> nd_addr n -> node_act s !! b = node_act s0 !! b /\ node_inact s !! b = node_inact s0 !! b) ->
  node_le s0 s'.
Proof.
  intros Hs Hb b Hsome. unfold set_node in Hs. destruct (decide (b = nd_addr n)) as [->|Hne].
  - destruct (nd_status n); try discriminate; injection Hs as <-; unfold get_node; simpl.
    + rewrite lookup_insert. eauto.
    + destruct (node_act s !! nd_addr n); [eauto|]. rewrite lookup_insert. eauto.
  - destruct (Hb b Hne) as [E1 E2]. unfold get_node in *.
    destruct (nd_status n); try discriminate; injection Hs as <-; simpl;
      rewrite ?lookup_insert_ne by congruence; rewrite E1, E2; exact Hsome.
Qed.

Lemma prov_le_set s0 s p s' :
  set_provider s p = Ok s' ->
  (forall b, b <> pv_addr p -> prov_act s !! b = prov_act s0 !! b /\ prov_inact s !! b = prov_inact s0 !! b) ->
  prov_le s0 s'.
Proof.
  intros Hs Hb b Hsome. unfold set_provider in Hs. destruct (decide (b = pv_addr p)) as [->|Hne].
  - destruct (pv_status p); try discriminate; injection Hs as <-; unfold get_provider; simpl.
    + rewrite lookup_insert. eauto.
    + destruct (prov_act s !! pv_addr p); [eauto|]. rewrite lookup_insert. eauto.
  - destruct (Hb b Hne) as [E1 E2]. unfold get_provider in *.
    destruct (pv_status p); try discriminate; injection Hs as <-; simpl;
      rewrite ?lookup_insert_ne by congruence; rewrite E1, E2; exact Hsome.
Qed.

(** ** node handlers and the node end-blocker *)

Lemma has_node_mono_register s from gb hr url s' : h_node_register s from gb hr url = Ok s' -> node_le s s'.
Proof.
  intros H. apply h_node_register_effect in H as (s1 & _ & _ & _ & H1 & ->).
  apply (node_le_trans s s1); [exact (node_le_keeps _ _ _ (fund_pool_keeps _ _ _ _ H1) eq_refl)|].
  intros b Hb. unfold get_node in *. simpl. destruct (node_act s1 !! b); [exact Hb|].
  destruct (decide (b = ta_bytes from)) as [->|Hne]; [rewrite lookup_insert; eauto|rewrite lookup_insert_ne by congruence; exact Hb].
Qed.

Lemma has_node_mono_update_details s from gb hr url s' : h_node_update_details s from gb hr url = Ok s' -> node_le s s'.
Proof.
  intros H. unfold h_node_update_details in H. res_inv.
  match goal with Hs : set_node s ?n = Ok ?z |- _ =>
    apply (node_le_trans s z); [|apply node_le_frame; reflexivity];
    eapply node_le_set; [exact Hs|]; intros b _; auto end.
Qed.

Lemma has_node_mono_update_status s from st s' :
  kinv_node s -> h_node_update_status s from st = Ok s' -> node_le s s'.
Proof.
  intros Hk H. apply h_node_update_status_effect in H as (n & Hg & Hst & ->).
  destruct (get_node_kinv _ _ _ Hk Hg) as [Ea _]. intros b Hb. unfold get_node in *. simpl. rewrite Ea.
  destruct (decide (b = ta_bytes from)) as [->|Hne].
  - destruct Hst as [-> | ->]; repeat case_bool_decide; try congruence; rewrite ?lookup_insert, ?lookup_delete; eauto;
      destruct (node_act s !! ta_bytes from); eauto.
  - repeat case_bool_decide; rewrite ?lookup_insert_ne, ?lookup_delete_ne by congruence; exact Hb.
Qed.

Lemma has_node_mono_sweep_one s n s' : node_sweep_one s n = Ok s' -> node_le s s'.
Proof.
  intros H. unfold node_sweep_one in H. apply rbind_ok in H as (s1 & Hs & H). injection H as <-. apply must_ok in Hs.
  apply (node_le_trans s s1); [|apply node_le_frame; reflexivity].
  eapply node_le_set; [exact Hs|]. intros b _. auto.
Qed.

Lemma has_node_mono_expire_one s e s' : node_expire_one s e = Ok s' -> node_le s s'.
Proof.
  intros H. unfold node_expire_one in H. destruct (get_node s e.2) as [n|]; [|discriminate].
  apply rbind_ok in H as (s2 & Hs & H). injection H as <-. apply must_ok in Hs.
  apply (node_le_trans s s2); [|apply node_le_frame; reflexivity].
  eapply node_le_set; [exact Hs|]. simpl. intros b Hb. rewrite lookup_delete_ne by congruence. auto.
Qed.

Lemma has_node_mono_end_block s s' : node_end_block s = Ok s' -> node_le s s'.
Proof.
  intros H. unfold node_end_block in H. apply rbind_ok in H as (s1 & Hsw & H).
  apply (node_le_trans s s1).
  - destruct (_ || _); [|injection Hsw as <-; apply node_le_refl].
    eapply (rfold_rel node_le); [apply node_le_refl|apply node_le_trans| |exact Hsw].
    intros a n b. apply has_node_mono_sweep_one.
  - eapply (rfold_rel node_le); [apply node_le_refl|apply node_le_trans| |exact H].
    intros a e b. apply has_node_mono_expire_one.
Qed.

(** ** provider handlers *)

Lemma has_provider_mono_register s from n i w d s' : h_prov_register s from n i w d = Ok s' -> prov_le s s'.
Proof.
  intros H. apply h_prov_register_effect in H as (s1 & _ & H1 & ->).
  apply (prov_le_trans s s1); [exact (prov_le_keeps _ _ _ (fund_pool_keeps _ _ _ _ H1) eq_refl)|].
  intros b Hb. unfold get_provider in *. simpl. destruct (prov_act s1 !! b); [exact Hb|].
  destruct (decide (b = ta_bytes from)) as [->|Hne]; [rewrite lookup_insert; eauto|rewrite lookup_insert_ne by congruence; exact Hb].
Qed.

Lemma has_provider_mono_update s from n i w d st s' :
  kinv_pv s -> h_prov_update s from n i w d st = Ok s' -> prov_le s s'.
Proof.
  intros Hk H. unfold h_prov_update in H. destruct (get_provider s (ta_bytes from)) as [p|] eqn:Hg; [|discriminate].
  destruct (get_provider_kinv _ _ _ Hk Hg) as [Ea _].
  match type of H with (let '(s1, p2) := ?q in _) = _ => destruct q as [s1 p2] eqn:Ep end.
  apply rbind_ok in H as (s2 & Hset & H). injection H as <-.
  apply (prov_le_trans s s2); [|apply prov_le_frame; reflexivity].
  assert (Hp2 : pv_addr p2 = ta_bytes from /\
                forall b, b <> ta_bytes from -> prov_act s1 !! b = prov_act s !! b /\ prov_inact s1 !! b = prov_inact s !! b).
  { repeat case_bool_decide; injection Ep as <- <-; simpl; (split; [exact Ea|]); intros b Hb;
      rewrite ?lookup_delete_ne by congruence; auto. }
  destruct Hp2 as [Ep2 Hb].
  eapply prov_le_set; [exact Hset|]. rewrite Ep2. exact Hb.
Qed.

(** * frames for [idx_plan] *)

Lemma idx_plan_mono s s' :
  (forall id, get_plan s' id = get_plan s id) -> plan_prov s' = plan_prov s -> node_plan s' = node_plan s ->
  node_le s s' -> prov_le s s' -> idx_plan s -> idx_plan s'.
Proof.
  intros Eg E1 E2 Hn Hp [A B C D]. split.
  - intros a id. rewrite E1, Eg. apply A.
  - intros id a. rewrite E2, Eg. intros Hin. destruct (B _ _ Hin) as [B1 B2]. split; [exact B1|apply Hn; exact B2].
  - intros id p. rewrite Eg. intros Hg. apply Hp. eapply C; eauto.
  - intros id p. rewrite Eg. apply D.
Qed.

Lemma idx_plan_frame s s' :
  plan_act s' = plan_act s -> plan_inact s' = plan_inact s -> plan_prov s' = plan_prov s -> node_plan s' = node_plan s ->
  node_le s s' -> prov_le s s' -> idx_plan s -> idx_plan s'.
Proof. intros E1 E2 E3 E4. apply idx_plan_mono; auto. apply get_plan_frame; auto. Qed.

(* the plan group is untouched, nodes and providers stay registered *)
Lemma idx_plan_keeps_le T s s' :
  keeps T s s' -> touched GPl T = false -> node_le s s' -> prov_le s s' -> idx_plan s -> idx_plan s'.
Proof.
  intros (_ & _ & _ & _ & _ & K & _) Ht. rewrite Ht in K. simpl in K. apply idx_plan_frame; tauto.
Qed.

Lemma idx_plan_keeps T s s' :
  keeps T s s' -> touched GPl T = false -> touched GNode T = false -> touched GPv T = false -> idx_plan s -> idx_plan s'.
Proof.
  intros Hk T1 T2 T3. eapply idx_plan_keeps_le; [exact Hk|exact T1|eapply node_le_keeps; eauto|eapply prov_le_keeps; eauto].
Qed.

Lemma idx_plan_emit e s : idx_plan s -> idx_plan (emit e s).
Proof. apply idx_plan_frame; try reflexivity; [apply node_le_frame; reflexivity|apply prov_le_frame; reflexivity]. Qed.

(** * plan handlers *)

Lemma fresh_plan s : kinv_plan s -> forall id, plan_count s < id -> get_plan s id = None.
Proof.
  intros [A B _ _] id Hlt. unfold get_plan.
  destruct (plan_act s !! id) eqn:E1; [destruct (A _ _ E1) as (_ & _ & ?); lia|].
  destruct (plan_inact s !! id) eqn:E2; [destruct (B _ _ E2) as (_ & _ & ?); lia|]. reflexivity.
Qed.

(* [set_plan] after the old copy of the record was (possibly) removed from either partition *)
Lemma get_plan_set s0 s p s' :
  set_plan s p = Ok s' ->
  (forall b, b <> pl_id p -> plan_act s !! b = plan_act s0 !! b /\ plan_inact s !! b = plan_inact s0 !! b) ->
  (pl_status p = SInactive -> plan_act s !! pl_id p = None) ->
  forall b, get_plan s' b = if decide (b = pl_id p) then Some p else get_plan s0 b.
Proof.
  intros Hs Hb Hno b. unfold set_plan in Hs. destruct (decide (b = pl_id p)) as [->|Hne].
  - destruct (pl_status p); try discriminate; injection Hs as <-; unfold get_plan; simpl.
    + rewrite lookup_insert. reflexivity.
    + rewrite Hno by reflexivity. rewrite lookup_insert. reflexivity.
  - destruct (Hb b Hne) as [E1 E2]. unfold get_plan.
    destruct (pl_status p); try discriminate; injection Hs as <-; simpl;
      rewrite ?lookup_insert_ne by congruence; rewrite E1, E2; reflexivity.
Qed.

(* one plan record is replaced by one with the same provider, duration and quota *)
Lemma idx_plan_replace s s' p p' :
  idx_plan s -> get_plan s (pl_id p') = Some p ->
  pl_prov p' = pl_prov p -> pl_duration p' = pl_duration p -> pl_gb p' = pl_gb p ->
  (forall b, get_plan s' b = if decide (b = pl_id p') then Some p' else get_plan s b) ->
  plan_prov s' = plan_prov s -> node_plan s' = node_plan s -> node_le s s' -> prov_le s s' -> idx_plan s'.
Proof.
  intros [A B C D] Hg E1 E2 E3 Hget F1 F2 Hn Hp. split.
  - intros a id. rewrite F1, Hget, A. destruct (decide (id = pl_id p')) as [->|Hne]; [|reflexivity].
    rewrite Hg. split; intros (q & [= <-] & Hq); eexists; (split; [reflexivity|congruence]).
  - intros id a. rewrite F2, Hget. intros Hin. destruct (B _ _ Hin) as [B1 B2].
    split; [destruct (decide (id = pl_id p')); eauto|apply Hn; exact B2].
  - intros id q. rewrite Hget. destruct (decide (id = pl_id p')) as [->|Hne].
    + intros [= <-]. rewrite E1. apply Hp. eapply C; eauto.
    + intros Hq. apply Hp. eapply C; eauto.
  - intros id q. rewrite Hget. destruct (decide (id = pl_id p')) as [->|Hne].
    + intros [= <-]. rewrite E2, E3. eapply D; eauto.
    + apply D.
Qed.

Lemma idx_h_plan_create s from du g pr s' :
  kinv_plan s -> idx_plan s -> 0 < du -> 0 < g -> h_plan_create s from du g pr = Ok s' -> idx_plan s'.
Proof.
  intros Hk [A B C D] Hdu Hg H. unfold h_plan_create in H. res_inv.
  match goal with Hp : has_provider s _ = true |- _ => apply bool_decide_eq_true in Hp; rename Hp into Hprov end.
  match goal with Hs : set_plan _ _ = Ok _ |- _ => unfold set_plan in Hs; simpl in Hs; injection Hs as <- end.
  pose proof (fresh_plan s Hk (plan_count s + 1) ltac:(lia)) as Hfresh.
  assert (Hact : plan_act s !! (plan_count s + 1) = None).
  { unfold get_plan in Hfresh. destruct (plan_act s !! (plan_count s + 1)); [discriminate|reflexivity]. }
  match goal with |- context [<[ _ := ?q ]> _] => set (p := q) in * end.
  match goal with |- idx_plan (emit _ ?z) => apply idx_plan_emit; set (s1 := z) end.
  assert (Hget : forall b, get_plan s1 b = if decide (b = plan_count s + 1) then Some p else get_plan s b).
  { intros b. unfold get_plan, s1. simpl. destruct (decide (b = plan_count s + 1)) as [->|Hne].
    - rewrite Hact, lookup_insert. reflexivity.
    - rewrite lookup_insert_ne by congruence. reflexivity. }
  split.
  - intros a id. rewrite Hget. unfold s1. simpl. rewrite elem_of_union, elem_of_singleton, A.
    destruct (decide (id = plan_count s + 1)) as [->|Hne].
    + rewrite Hfresh. split.
      * intros [(q & Hq & _)|[= ->]]; [discriminate|]. exists p. auto.
      * intros (q & [= <-] & <-). right. reflexivity.
    + split; [intros [Hq|[= _ ?]]; [exact Hq|congruence]|auto].
  - intros id a. rewrite Hget. unfold s1. simpl. intros Hin. destruct (B _ _ Hin) as [B1 B2].
    split; [destruct (decide (id = plan_count s + 1)); eauto|exact B2].
  - intros id q. rewrite Hget. change (get_provider s1) with (get_provider s).
    destruct (decide (id = plan_count s + 1)) as [->|Hne]; [intros [= <-]; exact Hprov|apply C].
  - intros id q. rewrite Hget.
    destruct (decide (id = plan_count s + 1)) as [->|Hne]; [intros [= <-]; simpl; auto|apply D].
Qed.

Lemma idx_h_plan_update_status s from id st s' :
  kinv_plan s -> idx_plan s -> h_plan_update_status s from id st = Ok s' -> idx_plan s'.
Proof.
  intros Hk Hi H. unfold h_plan_update_status in H. destruct (get_plan s id) as [p|] eqn:Hg; [|discriminate].
  destruct (get_plan_kinv _ _ _ Hk Hg) as (Ea & Hr & Hcase).
  apply rbind_ok in H as (u & _ & H). apply rbind_ok in H as (s3 & Hset & H). injection H as <-. apply idx_plan_emit.
  match type of Hset with set_plan ?z ?q = _ => set (s2 := z) in *; set (p' := q) in * end.
  assert (Eid : pl_id p' = id) by exact Ea.
  assert (Hst : st = SActive \/ st = SInactive).
  { unfold set_plan in Hset. simpl in Hset. destruct st; try discriminate; auto. }
  assert (Hb : forall b, b <> pl_id p' -> plan_act s2 !! b = plan_act s !! b /\ plan_inact s2 !! b = plan_inact s !! b).
  { intros b Hne. rewrite Eid in Hne. unfold s2. repeat case_bool_decide; simpl; rewrite ?lookup_delete_ne by congruence; auto. }
  assert (Hno : pl_status p' = SInactive -> plan_act s2 !! pl_id p' = None).
  { rewrite Eid. unfold p', s2. simpl. intros ->.
    destruct Hcase as [(E & E1 & E2)|(E & E1 & E2)]; rewrite E; repeat case_bool_decide; simpl;
      rewrite ?lookup_delete; auto; intuition congruence. }
  pose proof (get_plan_set s s2 p' s3 Hset Hb Hno) as Hget.
  assert (F : plan_prov s3 = plan_prov s /\ node_plan s3 = node_plan s /\
              node_act s3 = node_act s /\ node_inact s3 = node_inact s /\ prov_act s3 = prov_act s /\ prov_inact s3 = prov_inact s).
  { unfold set_plan in Hset. destruct (pl_status p'); try discriminate; injection Hset as <-; unfold s2;
      repeat case_bool_decide; simpl; auto 10. }
  destruct F as (F1 & F2 & F3 & F4 & F5 & F6).
  eapply (idx_plan_replace s s3 p p'); try reflexivity; auto.
  - rewrite Eid. exact Hg.
  - apply node_le_frame; auto.
  - apply prov_le_frame; auto.
Qed.

Lemma idx_h_plan_link s from id nd s' : idx_plan s -> h_plan_link s from id nd = Ok s' -> idx_plan s'.
Proof.
  intros [A B C D] H. unfold h_plan_link in H. destruct (get_plan s id) as [p|] eqn:Hg; [|discriminate].
  apply rbind_ok in H as (u & _ & H). apply rbind_ok in H as (u2 & Hn & H). injection H as <-.
  apply ensure_ok, bool_decide_eq_true in Hn. apply idx_plan_emit. split; simpl.
  - exact A.
  - intros id' a. rewrite elem_of_union, elem_of_singleton. intros [Hin|[= -> ->]]; [apply B; exact Hin|].
    change (get_plan _ id) with (get_plan s id). rewrite Hg. split; [eauto|exact Hn].
  - exact C.
  - exact D.
Qed.

Lemma idx_h_plan_unlink s from id nd s' : idx_plan s -> h_plan_unlink s from id nd = Ok s' -> idx_plan s'.
Proof.
  intros [A B C D] H. unfold h_plan_unlink in H. destruct (get_plan s id) as [p|] eqn:Hg; [|discriminate].
  apply rbind_ok in H as (u & _ & H). injection H as <-.
  apply idx_plan_emit. split; simpl.
  - exact A.
  - intros id' a. rewrite elem_of_difference. intros [Hin _]. apply B. exact Hin.
  - exact C.
  - exact D.
Qed.

(** * one operation *)

Lemma idx_plan_clear s : idx_plan s -> idx_plan (clear_events s).
Proof. apply idx_plan_frame; try reflexivity; [apply node_le_frame; reflexivity|apply prov_le_frame; reflexivity]. Qed.

Lemma idx_plan_handle s m s' :
  kinv s -> idx_plan s -> validate_basic m = true -> handle s m = Ok s' -> idx_plan s'.
Proof.
  intros Hi Hp Hv H. destruct m; simpl in H.
  - (* provider register *)
    eapply idx_plan_keeps_le; [eapply h_prov_register_keeps; exact H|reflexivity| | |exact Hp].
    + eapply node_le_keeps; [eapply h_prov_register_keeps; exact H|reflexivity].
    + eapply has_provider_mono_register; exact H.
  - (* provider update *)
    eapply idx_plan_keeps_le; [eapply h_prov_update_keeps; exact H|reflexivity| | |exact Hp].
    + eapply node_le_keeps; [eapply h_prov_update_keeps; exact H|reflexivity].
    + eapply has_provider_mono_update; [apply Hi|exact H].
  - (* node register *)
    eapply idx_plan_keeps_le; [eapply h_node_register_keeps; exact H|reflexivity| | |exact Hp].
    + eapply has_node_mono_register; exact H.
    + eapply prov_le_keeps; [eapply h_node_register_keeps; exact H|reflexivity].
  - (* node update details *)
    eapply idx_plan_keeps_le; [eapply h_node_update_details_keeps; exact H|reflexivity| | |exact Hp].
    + eapply has_node_mono_update_details; exact H.
    + eapply prov_le_keeps; [eapply h_node_update_details_keeps; exact H|reflexivity].
  - (* node update status *)
    eapply idx_plan_keeps_le; [eapply h_node_update_status_keeps; exact H|reflexivity| | |exact Hp].
    + eapply has_node_mono_update_status; [apply Hi|exact H].
    + eapply prov_le_keeps; [eapply h_node_update_status_keeps; exact H|reflexivity].
  - eapply idx_plan_keeps; [eapply h_node_subscribe_keeps; exact H|reflexivity..|exact Hp].
  - (* plan create *)
    simpl in Hv. rewrite !andb_true_iff in Hv. destruct Hv as (((_ & Hd) & Hg) & _).
    apply Z.ltb_lt in Hd. apply Z.ltb_lt in Hg.
    eapply idx_h_plan_create; [apply Hi|exact Hp|exact Hd|exact Hg|exact H].
  - eapply idx_h_plan_update_status; [apply Hi|exact Hp|exact H].
  - eapply idx_h_plan_link; [exact Hp|exact H].
  - eapply idx_h_plan_unlink; [exact Hp|exact H].
  - eapply idx_plan_keeps; [eapply h_plan_subscribe_keeps; exact H|reflexivity..|exact Hp].
  - eapply idx_plan_keeps; [eapply h_sub_cancel_keeps; exact H|reflexivity..|exact Hp].
  - eapply idx_plan_keeps; [eapply h_sub_allocate_keeps; exact H|reflexivity..|exact Hp].
  - eapply idx_plan_keeps; [eapply h_sess_start_keeps; exact H|reflexivity..|exact Hp].
  - eapply idx_plan_keeps; [eapply h_sess_update_keeps; exact H|reflexivity..|exact Hp].
  - eapply idx_plan_keeps; [eapply h_sess_end_keeps; exact H|reflexivity..|exact Hp].
  - eapply idx_plan_keeps; [eapply h_swap_keeps; exact H|reflexivity..|exact Hp].
Qed.

Lemma idx_plan_end_block s s' : idx_plan s -> end_block s = Ok s' -> idx_plan s'.
Proof.
  intros Hp H. apply end_block_effect in H as (s1 & s2 & H1 & H2 & H3).
  assert (Hp1 : idx_plan s1).
  { eapply idx_plan_keeps_le; [eapply node_end_block_keeps; exact H1|reflexivity| | |exact Hp].
    - eapply has_node_mono_end_block; exact H1.
    - eapply prov_le_keeps; [eapply node_end_block_keeps; exact H1|reflexivity]. }
  assert (Hp2 : idx_plan s2) by (eapply idx_plan_keeps; [eapply session_end_block_keeps; exact H2|reflexivity..|exact Hp1]).
  eapply idx_plan_keeps; [eapply sub_end_block_keeps; exact H3|reflexivity..|exact Hp2].
Qed.

Theorem idx_plan_step s o s' : kinv s -> idx_plan s -> step s o = OOk s' -> idx_plan s'.
Proof.
  intros Hi Hp H. apply step_inv in H. pose proof (idx_plan_clear _ Hp) as Hc. destruct o.
  - apply begin_block_keeps in H. assert (K : keeps [GBank; GDep; GSub; GMint; GNow] s s') by keeps_chain.
    exact (idx_plan_keeps _ _ _ K eq_refl eq_refl eq_refl Hp).
  - destruct H as [Hv H]. eapply idx_plan_handle; [apply kinv_clear; exact Hi|exact Hc|exact Hv|exact H].
  - destruct H as [_ ->]. apply (fold_left_inv idx_plan); [|exact Hc].
    intros y c Hy. eapply idx_plan_keeps; [apply apply_pchange_keeps|reflexivity..|exact Hy].
  - destruct H as (se & H & ->).
    apply (idx_plan_frame se); try reflexivity; [apply node_le_frame; reflexivity|apply prov_le_frame; reflexivity|].
    eapply idx_plan_end_block; [exact Hc|exact H].
Qed.

(** * histories *)

Theorem idx_plan_run ops : forall s i s', kinv s -> idx_plan s -> run_from s ops i = RunOk s' -> idx_plan s'.
Proof.
  intros s i s' Hi Hp H. apply (run_from_inv (fun x => kinv x /\ idx_plan x) ops s i s'); [| |auto|exact H].
  - intros x o x' [A B] Hs. split; [eapply kinv_step|eapply idx_plan_step]; eauto.
  - intros x [A B]. split; [apply kinv_clear; exact A|apply idx_plan_clear; exact B].
Qed.

Lemma idx_plan_empty c p : idx_plan (empty_state c p).
Proof.
  split.
  - intros a id. unfold get_plan. simpl. rewrite !lookup_empty. split; [intros Hin; apply elem_of_empty in Hin; contradiction|].
    intros (q & Hq & _). discriminate.
  - intros id a Hin. simpl in Hin. apply elem_of_empty in Hin. contradiction.
  - intros id q. unfold get_plan. simpl. rewrite !lookup_empty. discriminate.
  - intros id q. unfold get_plan. simpl. rewrite !lookup_empty. discriminate.
Qed.

Theorem idx_plan_init g : idx_plan (init g).
Proof.
  exact (idx_plan_keeps _ _ _ (init_keeps g) eq_refl eq_refl eq_refl (idx_plan_empty _ _)).
Qed.

(* every state reached from genesis satisfies the plan invariant *)
Corollary idx_plan_reachable g ops s' : run (init g) ops = RunOk s' -> idx_plan s'.
Proof. unfold run. apply idx_plan_run; [apply kinv_init|apply idx_plan_init]. Qed.
