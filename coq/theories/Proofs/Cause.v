(* C04 (run level, subscriptions): WHY a subscription is demoted or removed.  Across one whole
   operation a subscription goes active -> inactive-pending only by its owner's MsgCancel or in the
   end-blocker of a block at or after its deadline, and then it is pending until exactly
   now + status_change_delay; it is removed only in the end-blocker of a block at or after the end of
   its pending period; an active subscription is never removed within the same operation. *)
From Hub Require Import Base.Prelude Base.Arith Model.Types Model.Keeper Model.Handlers Model.Hooks Model.Step.
From Hub Require Import Proofs.Tactics Proofs.Effects Proofs.Frames Proofs.KeysInv Proofs.Lifecycle Proofs.InvDefs Proofs.IndexAll Proofs.Link.

(** * transactions *)

Lemma h_sub_cancel_subs s from id0 s' :
  kinv_sub s -> h_sub_cancel s from id0 = Ok s' ->
  exists sb0, subs s !! id0 = Some sb0 /\ sb_status sb0 = SActive /\ ta_bytes from = sb_addr sb0 /\
              subs s' = <[id0 := sub_pending s sb0]> (subs s).
Proof.
  intros Hk H. destruct (h_sub_cancel_effect _ _ _ _ H) as (sb0 & s2 & Hsb & Hact & Hown & Hh & Hd).
  destruct (k_sub _ Hk _ _ Hsb) as (E1 & _).
  destruct (sub_demote_fields _ _ _ _ Err _ Hh ltac:(intros ?; discriminate) Hd) as (_ & _ & _ & Es & _).
  exists sb0. rewrite E1 in Es. auto.
Qed.

(* what one transaction does to one stored subscription *)
Lemma handle_subs s m s' id sb :
  kinv s -> handle s m = Ok s' -> subs s !! id = Some sb ->
  subs s' !! id = Some sb \/
  (exists from, m = MSubCancel from id /\ ta_bytes from = sb_addr sb /\ sb_status sb = SActive /\ subs s' !! id = Some (sub_pending s sb)).
Proof.
  intros Hi H Hsb. destruct (k_sub _ (ki_sub _ Hi) _ _ Hsb) as (_ & Hle & _).
  destruct (touched GSub (msg_groups m)) eqn:Ht.
  2:{ left. destruct (keeps_sub _ _ _ (handle_frame _ _ _ H) Ht) as (_ & -> & _). exact Hsb. }
  destruct m; try discriminate Ht; simpl in H.
  - (* node subscribe *) left. destruct (h_node_subscribe_effect _ _ _ _ _ _ _ H) as (s1 & nid & _ & _ & Hc & ->).
    destruct (evo_create_sub_for_node _ _ _ _ _ _ _ _ Hc) as [_ _ _ Kp _]. apply Kp; [exact Hsb|lia].
  - (* plan subscribe *) left. destruct (h_plan_subscribe_effect _ _ _ _ _ H) as (s1 & nid & Hc & ->).
    destruct (evo_create_sub_for_plan _ _ _ _ _ _ Hc) as [_ _ _ Kp _]. apply Kp; [exact Hsb|lia].
  - (* cancel *)
    destruct (h_sub_cancel_subs _ _ _ _ (ki_sub _ Hi) H) as (sb0 & Hsb0 & Hact & Hown & E). rewrite E.
    destruct (decide (id = id0)) as [->|Hne].
    + rewrite Hsb in Hsb0. injection Hsb0 as <-. right. exists from. rewrite lookup_insert. auto.
    + left. rewrite lookup_insert_ne by congruence. exact Hsb.
  - (* allocate *) left. destruct (h_sub_allocate_effect _ _ _ _ _ _ H) as (sb1 & fal & E). cbv zeta in E.
    destruct E as (_ & _ & _ & _ & _ & _ & _ & _ & _ & ->). exact Hsb.
Qed.

(** * the subscription end-blocker, followed for one subscription *)

(* the three things that can have happened to subscription [id] (stored as [sb] when the loop started) *)
Definition sub_fate (s0 : state) (id : Z) (sb : subscription) (x : state) : Prop :=
  subs x !! id = Some sb \/
  (sb_status sb = SActive /\ sb_inactive_at sb <= now s0 /\ subs x !! id = Some (sub_pending s0 sb)) \/
  (sb_status sb <> SActive /\ sb_inactive_at sb <= now s0 /\ subs x !! id = None).

Lemma sub_end_block_fate s s' id sb :
  end_inv s -> sess_fresh s -> sub_end_block s = Ok s' -> subs s !! id = Some sb -> sub_fate s id sb s'.
Proof.
  intros Hinv Hfr H Hsb0.
  destruct (sub_end_block_loop
              (fun rest x => ((exists t, (t, id) ∈ rest) -> subs x !! id = Some sb) /\ sub_fate s id sb x)
              s s' Hinv Hfr H) as (_ & _ & _ & _ & _ & G); [| |exact G].
  - split; [intros _; exact Hsb0|left; exact Hsb0].
  - intros id1 rest x x' sb1 Hx N1 N2 Hsb1 Hle Hnone M1 M3 _ [Hpend Hfate].
    destruct (decide (id1 = id)) as [->|Hne].
    + (* this iteration processes [id]: it was untouched so far *)
      assert (Hcur : subs x !! id = Some sb) by (apply Hpend; eexists; left).
      rewrite Hsb1 in Hcur. injection Hcur as ->.
      split; [intros [t' Hin']; destruct (Hnone _ Hin')|].
      unfold sub_fate. rewrite M3. case_bool_decide as Hact.
      * right. left. split; [exact Hact|]. split; [exact Hle|]. rewrite lookup_insert. unfold sub_pending. rewrite N1, N2. reflexivity.
      * right. right. split; [exact Hact|]. split; [exact Hle|]. apply lookup_delete.
    + (* another subscription: [id] is not touched *)
      assert (Hsame : subs x' !! id = subs x !! id).
      { rewrite M3. case_bool_decide; [rewrite lookup_insert_ne by congruence|rewrite lookup_delete_ne by congruence]; reflexivity. }
      split.
      * intros [t' Hin']. rewrite Hsame. apply Hpend. exists t'. right. exact Hin'.
      * unfold sub_fate in *. rewrite Hsame. exact Hfate.
Qed.

(* the whole end-blocker: nodes and sessions do not touch subscriptions *)
Lemma end_block_sub_fate s s' id sb :
  life_inv s -> end_block s = Ok s' -> subs s !! id = Some sb -> sub_fate s id sb s'.
Proof.
  intros Hl H Hsb. apply end_block_effect in H as (s1 & s2 & H1 & H2 & H3).
  pose proof (node_end_block_keeps _ _ H1) as K1. pose proof (end_inv_node_end_block _ _ (life_end_inv _ Hl) H1) as Hinv1.
  destruct (session_end_block_fresh _ _ Hinv1 H2) as (Hinv2 & Sf2 & N2 & P2).
  assert (Hsb2 : subs s2 !! id = Some sb).
  { rewrite (session_end_block_subs _ _ H2), (proj1 (proj2 (keeps_sub _ _ _ K1 eq_refl))). exact Hsb. }
  pose proof (sub_end_block_fate s2 s' id sb Hinv2 Sf2 H3 Hsb2) as F.
  assert (En : now s2 = now s) by (rewrite N2; exact (keeps_now _ _ _ K1 eq_refl)).
  assert (Ep : pars s2 = pars s) by (rewrite P2; exact (proj1 (keeps_par _ _ _ K1 eq_refl))).
  unfold sub_fate, sub_pending in *. rewrite En, Ep in F. exact F.
Qed.

(** * one whole operation *)

Lemma step_sub_fate s o s' id sb :
  life_inv s -> step s o = OOk s' -> subs s !! id = Some sb ->
  subs s' !! id = Some sb \/
  (exists from, o = OTx (MSubCancel from id) /\ ta_bytes from = sb_addr sb /\ sb_status sb = SActive /\ subs s' !! id = Some (sub_pending s sb)) \/
  (o = OEnd /\ sb_status sb = SActive /\ sb_inactive_at sb <= now s /\ subs s' !! id = Some (sub_pending s sb)) \/
  (o = OEnd /\ sb_status sb <> SActive /\ sb_inactive_at sb <= now s /\ subs s' !! id = None).
Proof.
  intros Hl Hstep Hsb. pose proof (ai_k _ (lf_idx _ Hl)) as Hi. apply step_inv in Hstep. destruct o.
  - left. rename Hstep into H. rename s' into x.
    apply begin_block_effect in H as (s1 & Hm & H). apply mint_begin_block_keeps in Hm.
    assert (E : subs x = subs s1).
    { revert H. apply (rfold_rel (fun a b => subs b = subs a)); [reflexivity|intros a b c E1 E2; rewrite E2; exact E1|].
      intros a e b Hs. destruct (payout_step_subs _ _ _ Hs) as (po & _ & _ & Es & _). exact Es. }
    rewrite E, (proj1 (proj2 (keeps_sub _ _ _ Hm eq_refl))). exact Hsb.
  - destruct Hstep as [_ H]. rename s' into x.
    destruct (handle_subs (clear_events s) m x id sb (kinv_clear _ Hi) H Hsb) as [F|(from & -> & F1 & F2 & F3)]; [left; exact F|].
    right. left. exists from. auto.
  - left. destruct Hstep as [_ ->]. destruct (keeps_sub _ _ _ (fold_pchange_keeps cs (clear_events s)) eq_refl) as (_ & G2 & _). rewrite G2. exact Hsb.
  - destruct Hstep as (x & H & ->).
    destruct (end_block_sub_fate (clear_events s) x id sb (life_clear _ Hl) H Hsb) as [F|[(F1 & F2 & F3)|(F1 & F2 & F3)]]; simpl; auto.
    + right. right. left. auto.
    + right. right. right. auto.
Qed.

(* demotion: only by the owner's MsgCancel, or in the end-blocker of a block at or after the deadline;
   the pending period then lasts exactly the delay in force at that moment *)
Theorem sub_demotion_cause s o s' id sb sb' :
  life_inv s -> step s o = OOk s' -> subs s !! id = Some sb -> subs s' !! id = Some sb' ->
  sb_status sb = SActive -> sb_status sb' = SPending ->
  sb_inactive_at sb' = now s + p_sub_delay (pars s) /\
  ((exists from, o = OTx (MSubCancel from id) /\ ta_bytes from = sb_addr sb) \/ (o = OEnd /\ sb_inactive_at sb <= now s)).
Proof.
  intros Hl Hstep Hsb Hsb' Hact Hpend.
  destruct (step_sub_fate _ _ _ _ _ Hl Hstep Hsb) as [F|[(from & -> & F1 & _ & F3)|[(-> & _ & F2 & F3)|(_ & _ & _ & F3)]]].
  - rewrite F in Hsb'. injection Hsb' as <-. congruence.
  - rewrite F3 in Hsb'. injection Hsb' as <-. split; [reflexivity|]. left. eauto.
  - rewrite F3 in Hsb'. injection Hsb' as <-. split; [reflexivity|]. right. auto.
  - rewrite F3 in Hsb'. discriminate.
Qed.

(* removal: only in the end-blocker of a block at or after the end of the pending period, and never of
   a subscription that was still active when the operation started *)
Theorem sub_removal_cause s o s' id sb :
  life_inv s -> step s o = OOk s' -> subs s !! id = Some sb -> subs s' !! id = None ->
  o = OEnd /\ sb_status sb = SPending /\ sb_inactive_at sb <= now s.
Proof.
  intros Hl Hstep Hsb Hnone.
  destruct (step_sub_fate _ _ _ _ _ Hl Hstep Hsb) as [F|[(from & _ & _ & _ & F3)|[(_ & _ & _ & F3)|(-> & F1 & F2 & _)]]].
  - rewrite Hnone in F. discriminate.
  - rewrite Hnone in F3. discriminate.
  - rewrite Hnone in F3. discriminate.
  - split; [reflexivity|]. split; [|exact F2].
    destruct (k_sub _ (ki_sub _ (ai_k _ (lf_idx _ Hl))) _ _ Hsb) as (_ & _ & [Hs|Hs]); [contradiction|exact Hs].
Qed.

(* nothing else happens to a stored subscription in one operation *)
Theorem sub_untouched_otherwise s o s' id sb sb' :
  life_inv s -> step s o = OOk s' -> subs s !! id = Some sb -> subs s' !! id = Some sb' ->
  sb_status sb' = sb_status sb -> sb' = sb.
Proof.
  intros Hl Hstep Hsb Hsb' Hst.
  destruct (step_sub_fate _ _ _ _ _ Hl Hstep Hsb) as [F|[(from & _ & _ & F2 & F3)|[(_ & F2 & _ & F3)|(_ & _ & _ & F3)]]].
  - rewrite F in Hsb'. injection Hsb' as <-. reflexivity.
  - rewrite F3 in Hsb'. injection Hsb' as <-. simpl in Hst. congruence.
  - rewrite F3 in Hsb'. injection Hsb' as <-. simpl in Hst. congruence.
  - rewrite F3 in Hsb'. discriminate.
Qed.
