(* Facts about Base/Bytes.v: fixed-width numerals compare like numbers, the
   length prefix is self-delimiting, byte order and prefix lemmas, slicing. *)
From Hub Require Import Base.Prelude Base.Bytes.
From Coq Require Import ZifyN ZifyNat ZifyBool.
Local Open Scope N_scope.

Definition lex (c d : comparison) : comparison := match c with Eq => d | Lt => Lt | Gt => Gt end.

Lemma lex_assoc a b c : lex (lex a b) c = lex a (lex b c).
Proof. destruct a; reflexivity. Qed.

(* ---- byte order ---- *)
Lemma bytes_cmp_refl a : bytes_cmp a a = Eq.
Proof. induction a as [|x a IH]; cbn; [reflexivity|]. rewrite N.compare_refl. exact IH. Qed.

Lemma bytes_cmp_eq a b : bytes_cmp a b = Eq <-> a = b.
Proof.
  split; [|intros ->; apply bytes_cmp_refl].
  revert b; induction a as [|x a IH]; intros [|y b] H; cbn in H; try discriminate; [reflexivity|].
  destruct (N.compare_spec x y) as [->|Hlt|Hgt]; try discriminate.
  f_equal. apply IH, H.
Qed.

Lemma bytes_cmp_app_same p a b : bytes_cmp (p ++ a) (p ++ b) = bytes_cmp a b.
Proof. induction p as [|x p IH]; cbn; [reflexivity|]. rewrite N.compare_refl. exact IH. Qed.

(* segments of equal length are compared first *)
Lemma bytes_cmp_app_len x y r1 r2 :
  length x = length y ->
  bytes_cmp (x ++ r1) (y ++ r2) = match bytes_cmp x y with Eq => bytes_cmp r1 r2 | c => c end.
Proof.
  revert y; induction x as [|a x IH]; intros [|b y] Hl; cbn in Hl; try discriminate; cbn; [reflexivity|].
  destruct (N.compare a b); try reflexivity. apply IH. congruence.
Qed.

Lemma bytes_cmp_antisym a b : bytes_cmp b a = CompOpp (bytes_cmp a b).
Proof.
  revert b; induction a as [|x a IH]; intros [|y b]; cbn; try reflexivity.
  rewrite (N.compare_antisym x y). destruct (N.compare x y); cbn; auto.
Qed.

Lemma bytes_eqb_refl a : bytes_eqb a a = true.
Proof. induction a as [|x a IH]; [reflexivity|]. cbn. rewrite N.eqb_refl. exact IH. Qed.

(* ---- prefixes ---- *)
Lemma is_prefixb_spec p k : is_prefixb p k = true <-> p `prefix_of` k.
Proof.
  revert k; induction p as [|x p IH]; intros k; cbn.
  - split; [intros _; exists k; reflexivity|reflexivity].
  - destruct k as [|y k].
    + split; [discriminate|]. intros [r Hr]. discriminate.
    + rewrite andb_true_iff, N.eqb_eq, IH. split.
      * intros [-> [r ->]]. exists r. reflexivity.
      * intros [r Hr]. injection Hr as -> ->. split; [reflexivity|]. exists r. reflexivity.
Qed.

Lemma prefix_app_cancel (p a b : bytes) : (p ++ a) `prefix_of` (p ++ b) <-> a `prefix_of` b.
Proof.
  split; intros [r Hr].
  - rewrite <- app_assoc in Hr. apply app_inv_head in Hr. exists r. exact Hr.
  - exists r. rewrite Hr, app_assoc. reflexivity.
Qed.

(* if P1 ++ x is a prefix of P2 ++ y then one of P1, P2 is a prefix of the other *)
Lemma prefix_heads_comparable (p1 p2 x y : bytes) :
  (p1 ++ x) `prefix_of` (p2 ++ y) -> is_prefixb p1 p2 || is_prefixb p2 p1 = true.
Proof.
  revert p2; induction p1 as [|a p1 IH]; intros p2 H; [reflexivity|].
  destruct p2 as [|b p2]; [cbn; reflexivity|].
  destruct H as [r Hr]. cbn in Hr. injection Hr as -> Hr.
  cbn. rewrite N.eqb_refl. cbn. apply IH. exists r. exact Hr.
Qed.

(* ---- fixed-width numerals ---- *)
Lemma digits_length base off k n : length (digits base off k n) = k.
Proof. induction k as [|k IH]; cbn; [reflexivity|]. rewrite IH. reflexivity. Qed.

Lemma digits_bound base off k n : base <> 0 -> Forall (fun b => b < off + base) (digits base off k n).
Proof.
  intros Hb. induction k as [|k IH]; cbn; constructor; [|exact IH].
  assert (n / base ^ N.of_nat k mod base < base) by (apply N.mod_lt; exact Hb). lia.
Qed.

Lemma pow_succ_nat (b : N) (k : nat) : b ^ N.of_nat (S k) = b ^ N.of_nat k * b.
Proof. rewrite Nat2N.inj_succ, N.pow_succ_r'. apply N.mul_comm. Qed.

Lemma add_compare_l (o a b : N) : N.compare (o + a) (o + b) = N.compare a b.
Proof.
  destruct (N.compare_spec a b) as [->|H|H];
    [apply N.compare_refl|apply N.compare_lt_iff; lia|apply N.compare_gt_iff; lia].
Qed.

Lemma mod_compare_same_div (b x y : N) : b <> 0 -> x / b = y / b ->
  N.compare (x mod b) (y mod b) = N.compare x y.
Proof.
  intros Hb Hq. rewrite <- (add_compare_l (b * (y / b))).
  rewrite <- (N.div_mod y b Hb). rewrite <- Hq, <- (N.div_mod x b Hb). reflexivity.
Qed.

Lemma div_lt_inv (p x y : N) : p <> 0 -> x / p < y / p -> x < y.
Proof. intros Hp H. apply N.lt_nge. intros Hle. apply (N.div_le_mono _ _ p Hp), N.le_ngt in Hle. exact (Hle H). Qed.

(* numerals of numbers that agree above the k-th digit compare like the numbers:
   the leading digits compare like n / base^k and m / base^k; when these are
   equal the induction hypothesis applies, otherwise they decide n against m *)
Lemma digits_cmp_gen base off k : base <> 0 -> forall n m r1 r2,
  n / base ^ N.of_nat k = m / base ^ N.of_nat k ->
  bytes_cmp (digits base off k n ++ r1) (digits base off k m ++ r2) =
  lex (N.compare n m) (bytes_cmp r1 r2).
Proof.
  intros Hb. induction k as [|k IH]; intros n m r1 r2 Hq.
  - cbn in Hq. rewrite !N.div_1_r in Hq. subst m. rewrite N.compare_refl. reflexivity.
  - assert (HP : base ^ N.of_nat k <> 0) by (apply N.pow_nonzero, Hb).
    rewrite pow_succ_nat, <- !N.div_div in Hq by assumption.
    cbn [digits app bytes_cmp].
    rewrite add_compare_l, (mod_compare_same_div _ _ _ Hb Hq).
    destruct (N.compare_spec (n / base ^ N.of_nat k) (m / base ^ N.of_nat k)) as [He|Hlt|Hgt].
    + apply IH, He.
    + apply (div_lt_inv _ _ _ HP), N.compare_lt_iff in Hlt. rewrite Hlt. reflexivity.
    + apply (div_lt_inv _ _ _ HP), N.compare_gt_iff in Hgt. rewrite Hgt. reflexivity.
Qed.

Lemma digits_cmp_app base off k n m r1 r2 : base <> 0 ->
  n < base ^ N.of_nat k -> m < base ^ N.of_nat k ->
  bytes_cmp (digits base off k n ++ r1) (digits base off k m ++ r2) =
  lex (N.compare n m) (bytes_cmp r1 r2).
Proof.
  intros Hb Hn Hm. apply digits_cmp_gen; [exact Hb|].
  rewrite !N.div_small by assumption. reflexivity.
Qed.

Lemma digits_cmp base off k n m : base <> 0 ->
  n < base ^ N.of_nat k -> m < base ^ N.of_nat k ->
  bytes_cmp (digits base off k n) (digits base off k m) = N.compare n m.
Proof.
  intros Hb Hn Hm.
  rewrite <- (app_nil_r (digits base off k n)), <- (app_nil_r (digits base off k m)).
  rewrite digits_cmp_app by assumption. destruct (N.compare n m); reflexivity.
Qed.

Lemma digits_inj base off k n m : base <> 0 ->
  n < base ^ N.of_nat k -> m < base ^ N.of_nat k ->
  digits base off k n = digits base off k m -> n = m.
Proof.
  intros Hb Hn Hm He. apply N.compare_eq_iff. rewrite <- (digits_cmp base off k) by assumption.
  apply bytes_cmp_eq, He.
Qed.

(* ---- 64-bit big-endian integers ---- *)
Definition U64_BOUND : N := 2 ^ 64.

Lemma u64be_length n : length (u64be n) = 8%nat.
Proof. apply digits_length. Qed.

Lemma u64_bound_pow : 256 ^ N.of_nat 8 = U64_BOUND.
Proof. reflexivity. Qed.

Lemma u64be_cmp_app n m r1 r2 : n < U64_BOUND -> m < U64_BOUND ->
  bytes_cmp (u64be n ++ r1) (u64be m ++ r2) = match N.compare n m with Eq => bytes_cmp r1 r2 | c => c end.
Proof.
  intros Hn Hm. refine (digits_cmp_app 256 0 8 n m r1 r2 _ _ _); [lia| |]; rewrite u64_bound_pow; assumption.
Qed.

Lemma u64be_cmp n m : n < U64_BOUND -> m < U64_BOUND -> bytes_cmp (u64be n) (u64be m) = N.compare n m.
Proof. intros Hn Hm. apply digits_cmp; [lia| |]; rewrite u64_bound_pow; assumption. Qed.

Lemma u64be_inj n m : n < U64_BOUND -> m < U64_BOUND -> u64be n = u64be m -> n = m.
Proof. intros Hn Hm. apply digits_inj; [lia| |]; rewrite u64_bound_pow; assumption. Qed.

Lemma digit_step (b p n acc : N) : p <> 0 -> b <> 0 ->
  (acc * b + n / p mod b) * p + n mod p = acc * (p * b) + n mod (p * b).
Proof. intros Hp Hb. rewrite (N.mod_mul_r n p b Hp Hb). ring. Qed.

Lemma be_fold_digits k : forall n acc,
  fold_left (fun a b => a * 256 + b) (digits 256 0 k n) acc = acc * 256 ^ N.of_nat k + n mod 256 ^ N.of_nat k.
Proof.
  induction k as [|k IH]; intros n acc.
  - cbn. rewrite N.mod_1_r. ring.
  - cbn [digits fold_left N.add]. rewrite IH, pow_succ_nat.
    apply digit_step; [apply N.pow_nonzero|]; discriminate.
Qed.

Lemma be_u64_u64be n : n < U64_BOUND -> be_u64 (u64be n) = Ok n.
Proof.
  intros Hn. unfold be_u64.
  assert (Hl := u64be_length n).
  destruct (u64be n) as [|b l] eqn:E; [discriminate|].
  rewrite Hl. cbn [Nat.ltb Nat.leb].
  replace (firstn 8 (b :: l)) with (b :: l) by (symmetry; apply firstn_all2; rewrite Hl; lia).
  rewrite <- E. unfold be_val, u64be. rewrite be_fold_digits, u64_bound_pow.
  rewrite N.mod_small by exact Hn. rewrite N.mul_0_l. reflexivity.
Qed.

(* ---- length prefix ---- *)
Lemma len_prefix_cons (a : bytes) : a <> [] -> len_prefix a = N.of_nat (length a) :: a.
Proof. destruct a; [congruence|reflexivity]. Qed.

Lemma len_prefix_length (a : bytes) : a <> [] -> length (len_prefix a) = S (length a).
Proof. intros H. rewrite len_prefix_cons by exact H. reflexivity. Qed.

(* self-delimiting: two length-prefixed strings followed by anything *)
Lemma len_prefix_delim (a b r1 r2 : bytes) : a <> [] -> b <> [] ->
  len_prefix a ++ r1 = len_prefix b ++ r2 -> a = b /\ r1 = r2.
Proof.
  intros Ha Hb. rewrite !len_prefix_cons by assumption. cbn. intros H.
  injection H as Hl H. apply Nat2N.inj in Hl.
  apply app_inj_1 in H; [exact H|exact Hl].
Qed.

(* without the length prefix the same statement is false *)
Lemma no_len_prefix_ambiguous : exists a b r1 r2 : bytes,
  a <> [] /\ b <> [] /\ a ++ r1 = b ++ r2 /\ a <> b.
Proof. exists [1], [1; 2], [2; 3], [3]. repeat split; discriminate. Qed.

(* ---- slicing ---- *)
Lemma key_at_app (p : bytes) b s i : length p = N.to_nat i -> key_at (p ++ b :: s) i = Ok b.
Proof.
  intros H. unfold key_at. rewrite <- H.
  rewrite nth_error_app2 by lia. rewrite Nat.sub_diag. reflexivity.
Qed.

Lemma slice_from_app (p s : bytes) n : length p = N.to_nat n -> slice_from (p ++ s) n = Ok s.
Proof.
  intros H. unfold slice_from. rewrite <- H, app_length.
  destruct (Nat.ltb_spec (length p + length s) (length p)); [lia|].
  rewrite skipn_app, Nat.sub_diag, skipn_all. reflexivity.
Qed.

Lemma slice_app (p m s : bytes) a b :
  length p = N.to_nat a -> (length p + length m)%nat = N.to_nat b -> slice (p ++ m ++ s) a b = Ok m.
Proof.
  intros Ha Hb. unfold slice.
  destruct (N.ltb_spec b a); [lia|]. cbn [orb].
  rewrite !app_length.
  destruct (Nat.ltb_spec (length p + (length m + length s)) (N.to_nat b)); [lia|].
  rewrite <- Ha, <- Hb. rewrite skipn_app, Nat.sub_diag, skipn_all. cbn [app skipn].
  replace (length p + length m - length p)%nat with (length m) by lia.
  rewrite skipn_O, firstn_app, Nat.sub_diag, firstn_all. cbn. rewrite app_nil_r. reflexivity.
Qed.
