(* C09 / C04 / C03: every secondary index of the KV store is exactly the image of the
   primary records it is derived from (stated pointwise), so filtered listings agree
   with the full listing, nothing dangles, and every queue entry the block hooks will
   consume points at a live record with exactly that deadline. *)
From Hub Require Import Base.Prelude Base.Arith Model.Types Model.Keeper Model.Handlers Model.Hooks Model.Step.
From Hub Require Import Proofs.Tactics Proofs.Effects Proofs.Frames Proofs.KeysInv.

Ltac ix_sets := rewrite ?elem_of_union, ?elem_of_difference, ?elem_of_singleton.

(* An index [ix] files the records of [m] under the keys related to them by [P] ([P k id v]: record [v],
   stored under [id], has key [k]); a record has exactly one key in each index. *)
Section index_clause.
  Context {K V : Type} `{Countable K} (P : K -> Z -> V -> Prop).
  Implicit Types (ix : gset (K * Z)) (m : gmap Z V).

  Lemma index_insert ix m k0 id0 v0 :
    (forall k id, (k, id) ∈ ix <-> exists v, m !! id = Some v /\ P k id v) ->
    m !! id0 = None -> (forall k, P k id0 v0 <-> k0 = k) ->
    forall k id, (k, id) ∈ ix ∪ {[ (k0, id0) ]} <-> exists v, <[id0 := v0]> m !! id = Some v /\ P k id v.
  Proof.
    intros Hix Hnone Hk k id. rewrite elem_of_union, elem_of_singleton, Hix.
    destruct (decide (id = id0)) as [->|Hne].
    - rewrite lookup_insert, Hnone. split.
      + intros [(v & Hv & _)|[= ->]]; [discriminate|]. exists v0. split; [reflexivity|]. apply Hk. reflexivity.
      + intros (v & [= <-] & Hp). right. f_equal. symmetry. apply Hk. exact Hp.
    - rewrite lookup_insert_ne by congruence. split; [intros [Hv|[= _ ?]]; [exact Hv|congruence]|auto].
  Qed.

  Lemma index_delete ix m k0 id0 v0 :
    (forall k id, (k, id) ∈ ix <-> exists v, m !! id = Some v /\ P k id v) ->
    m !! id0 = Some v0 -> (forall k, P k id0 v0 <-> k0 = k) ->
    forall k id, (k, id) ∈ ix ∖ {[ (k0, id0) ]} <-> exists v, delete id0 m !! id = Some v /\ P k id v.
  Proof.
    intros Hix Hsome Hk k id. rewrite elem_of_difference, elem_of_singleton, Hix.
    destruct (decide (id = id0)) as [->|Hne].
    - rewrite lookup_delete, Hsome. split.
      + intros [(v & [= <-] & Hp) Hne]. exfalso. apply Hne. f_equal. symmetry. apply Hk. exact Hp.
      + intros (v & Hv & _). discriminate.
    - rewrite lookup_delete_ne by congruence. split; [intros [Hv _]; exact Hv|]. intros Hv. split; [exact Hv|congruence].
  Qed.

  Lemma index_replace ix m id0 v0 v1 :
    (forall k id, (k, id) ∈ ix <-> exists v, m !! id = Some v /\ P k id v) ->
    m !! id0 = Some v0 -> (forall k, P k id0 v1 <-> P k id0 v0) ->
    forall k id, (k, id) ∈ ix <-> exists v, <[id0 := v1]> m !! id = Some v /\ P k id v.
  Proof.
    intros Hix Hsome Hk k id. rewrite Hix. destruct (decide (id = id0)) as [->|Hne].
    - rewrite lookup_insert, Hsome. split; intros (v & [= <-] & Hp); eexists; (split; [reflexivity|]); apply Hk; exact Hp.
    - rewrite lookup_insert_ne by congruence. reflexivity.
  Qed.

  Lemma index_rekey ix m k0 k1 id0 v0 v1 :
    (forall k id, (k, id) ∈ ix <-> exists v, m !! id = Some v /\ P k id v) ->
    m !! id0 = Some v0 -> (forall k, P k id0 v0 <-> k0 = k) -> (forall k, P k id0 v1 <-> k1 = k) ->
    forall k id, (k, id) ∈ (ix ∖ {[ (k0, id0) ]}) ∪ {[ (k1, id0) ]} <-> exists v, <[id0 := v1]> m !! id = Some v /\ P k id v.
  Proof.
    intros Hix Hsome H0 H1 k id. rewrite <- (insert_delete_insert m).
    apply index_insert; [apply (index_delete ix m k0 id0 v0); assumption|apply lookup_delete|exact H1].
  Qed.
End index_clause.

(** * sessions *)

Record idx_sess (s : state) : Prop := {
  ix_sq : forall t id, (t, id) ∈ sess_q s <-> exists x, sessions s !! id = Some x /\ ss_inactive_at x = t;
  ix_sacc : forall a id, (a, id) ∈ sess_acc s <-> exists x, sessions s !! id = Some x /\ ss_addr x = a;
  ix_snode : forall a id, (a, id) ∈ sess_node s <-> exists x, sessions s !! id = Some x /\ ss_node x = a;
  ix_ssub : forall sid id, (sid, id) ∈ sess_sub s <-> exists x, sessions s !! id = Some x /\ ss_sub x = sid;
  ix_salloc : forall sid a id, (sid, a, id) ∈ sess_alloc s <-> exists x, sessions s !! id = Some x /\ ss_sub x = sid /\ ss_addr x = a }.

Lemma idx_sess_frame s s' :
  sessions s' = sessions s -> sess_q s' = sess_q s -> sess_acc s' = sess_acc s -> sess_node s' = sess_node s ->
  sess_sub s' = sess_sub s -> sess_alloc s' = sess_alloc s -> idx_sess s -> idx_sess s'.
Proof. intros E1 E2 E3 E4 E5 E6 [A B C D E]. split; rewrite ?E1, ?E2, ?E3, ?E4, ?E5, ?E6; assumption. Qed.

Lemma idx_sess_keeps T s s' : keeps T s s' -> touched GSess T = false -> idx_sess s -> idx_sess s'.
Proof. intros K Ht. destruct (keeps_sess _ _ _ K Ht) as (_ & E1 & E2 & E3 & E4 & E5 & E6). apply idx_sess_frame; assumption. Qed.

Lemma ix_salloc_pair s :
  idx_sess s -> forall k id, (k, id) ∈ sess_alloc s <-> exists x, sessions s !! id = Some x /\ ss_sub x = k.1 /\ ss_addr x = k.2.
Proof. intros Hi [sid a] id. apply (ix_salloc _ Hi). Qed.

Lemma salloc_key x k : ss_sub x = k.1 /\ ss_addr x = k.2 <-> (ss_sub x, ss_addr x) = k.
Proof. destruct k as [sid a]. simpl. split; [intros [<- <-]; reflexivity|intros [= <- <-]; auto]. Qed.

(* The three ways a session record is written.  In each, every clause is one of the patterns above:
   the deadline queue is keyed by [ss_inactive_at], the other four indices by fields that never change. *)

Lemma idx_sess_insert s s' x :
  idx_sess s -> sessions s !! ss_id x = None ->
  sessions s' = <[ss_id x := x]> (sessions s) -> sess_q s' = sess_q s ∪ {[ (ss_inactive_at x, ss_id x) ]} ->
  sess_acc s' = sess_acc s ∪ {[ (ss_addr x, ss_id x) ]} -> sess_node s' = sess_node s ∪ {[ (ss_node x, ss_id x) ]} ->
  sess_sub s' = sess_sub s ∪ {[ (ss_sub x, ss_id x) ]} -> sess_alloc s' = sess_alloc s ∪ {[ (ss_sub x, ss_addr x, ss_id x) ]} ->
  idx_sess s'.
Proof.
  intros Hi Hx E1 E2 E3 E4 E5 E6. split; intros; rewrite E1.
  - rewrite E2. apply (index_insert (fun t _ y => ss_inactive_at y = t) _ _ _ _ _ (ix_sq _ Hi) Hx). reflexivity.
  - rewrite E3. apply (index_insert (fun a _ y => ss_addr y = a) _ _ _ _ _ (ix_sacc _ Hi) Hx). reflexivity.
  - rewrite E4. apply (index_insert (fun a _ y => ss_node y = a) _ _ _ _ _ (ix_snode _ Hi) Hx). reflexivity.
  - rewrite E5. apply (index_insert (fun k _ y => ss_sub y = k) _ _ _ _ _ (ix_ssub _ Hi) Hx). reflexivity.
  - rewrite E6. apply (index_insert (fun k _ y => ss_sub y = k.1 /\ ss_addr y = k.2) _ _ _ _ _ (ix_salloc_pair _ Hi) Hx (salloc_key x) (sid, a)).
Qed.

Lemma idx_sess_delete s s' x :
  idx_sess s -> sessions s !! ss_id x = Some x ->
  sessions s' = delete (ss_id x) (sessions s) -> sess_q s' = sess_q s ∖ {[ (ss_inactive_at x, ss_id x) ]} ->
  sess_acc s' = sess_acc s ∖ {[ (ss_addr x, ss_id x) ]} -> sess_node s' = sess_node s ∖ {[ (ss_node x, ss_id x) ]} ->
  sess_sub s' = sess_sub s ∖ {[ (ss_sub x, ss_id x) ]} -> sess_alloc s' = sess_alloc s ∖ {[ (ss_sub x, ss_addr x, ss_id x) ]} ->
  idx_sess s'.
Proof.
  intros Hi Hx E1 E2 E3 E4 E5 E6. split; intros; rewrite E1.
  - rewrite E2. apply (index_delete (fun t _ y => ss_inactive_at y = t) _ _ _ _ _ (ix_sq _ Hi) Hx). reflexivity.
  - rewrite E3. apply (index_delete (fun a _ y => ss_addr y = a) _ _ _ _ _ (ix_sacc _ Hi) Hx). reflexivity.
  - rewrite E4. apply (index_delete (fun a _ y => ss_node y = a) _ _ _ _ _ (ix_snode _ Hi) Hx). reflexivity.
  - rewrite E5. apply (index_delete (fun k _ y => ss_sub y = k) _ _ _ _ _ (ix_ssub _ Hi) Hx). reflexivity.
  - rewrite E6. apply (index_delete (fun k _ y => ss_sub y = k.1 /\ ss_addr y = k.2) _ _ _ _ _ (ix_salloc_pair _ Hi) Hx (salloc_key x) (sid, a)).
Qed.

(* [x] becomes [x'], same owner, node and subscription; the queue entry follows the deadline *)
Lemma idx_sess_update s s' x x' :
  idx_sess s -> sessions s !! ss_id x = Some x -> sessions s' = <[ss_id x := x']> (sessions s) ->
  ss_addr x' = ss_addr x -> ss_node x' = ss_node x -> ss_sub x' = ss_sub x ->
  sess_q s' = (sess_q s ∖ {[ (ss_inactive_at x, ss_id x) ]}) ∪ {[ (ss_inactive_at x', ss_id x) ]} ->
  sess_acc s' = sess_acc s -> sess_node s' = sess_node s -> sess_sub s' = sess_sub s -> sess_alloc s' = sess_alloc s ->
  idx_sess s'.
Proof.
  intros Hi Hx E1 Ea En Es E2 E3 E4 E5 E6. split; intros; rewrite E1.
  - rewrite E2. apply (index_rekey (fun t _ y => ss_inactive_at y = t) _ _ _ _ _ _ _ (ix_sq _ Hi) Hx); reflexivity.
  - rewrite E3. apply (index_replace (fun a _ y => ss_addr y = a) _ _ _ _ _ (ix_sacc _ Hi) Hx). intros k. rewrite Ea. reflexivity.
  - rewrite E4. apply (index_replace (fun a _ y => ss_node y = a) _ _ _ _ _ (ix_snode _ Hi) Hx). intros k. rewrite En. reflexivity.
  - rewrite E5. apply (index_replace (fun k _ y => ss_sub y = k) _ _ _ _ _ (ix_ssub _ Hi) Hx). intros k. rewrite Es. reflexivity.
  - rewrite E6. apply (index_replace (fun k _ y => ss_sub y = k.1 /\ ss_addr y = k.2) _ _ _ _ _ (ix_salloc_pair _ Hi) Hx).
    intros k. rewrite Ea, Es. reflexivity.
Qed.

Lemma idx_sess_update_same s s' x x' :
  idx_sess s -> sessions s !! ss_id x = Some x -> sessions s' = <[ss_id x := x']> (sessions s) ->
  ss_inactive_at x' = ss_inactive_at x -> ss_addr x' = ss_addr x -> ss_node x' = ss_node x -> ss_sub x' = ss_sub x ->
  sess_q s' = sess_q s ->
  sess_acc s' = sess_acc s -> sess_node s' = sess_node s -> sess_sub s' = sess_sub s -> sess_alloc s' = sess_alloc s ->
  idx_sess s'.
Proof.
  intros Hi Hx E1 Et Ea En Es E2 E3 E4 E5 E6. apply (idx_sess_update s s' x x'); try assumption.
  rewrite E2, Et. apply leibniz_equiv, set_equiv. intros [t id]. rewrite elem_of_union, elem_of_difference, elem_of_singleton.
  destruct (decide ((t, id) = (ss_inactive_at x, ss_id x))) as [->|Hne]; [|tauto].
  split; [auto|]. intros _. apply (ix_sq _ Hi). eauto.
Qed.

Lemma idx_session_make_pending s x :
  kinv_sess s -> idx_sess s -> sessions s !! ss_id x = Some x -> idx_sess (session_make_pending s x).
Proof. intros _ Hi Hx. eapply (idx_sess_update s _ x); [exact Hi|exact Hx|..]; reflexivity. Qed.

Lemma idx_sub_pending_hook s id s' : kinv_sess s -> idx_sess s -> sub_pending_hook s id = Ok s' -> idx_sess s'.
Proof.
  intros Hk Hix H. unfold sub_pending_hook in H.
  assert (G : kinv_sess s' /\ idx_sess s').
  { eapply (rfold_inv (fun y => kinv_sess y /\ idx_sess y)); [|split; eassumption|exact H].
    intros a sid b [Ha Hq] Hstep. cbv beta in Hstep. destruct (sessions a !! sid) as [x|] eqn:Hx; [|discriminate].
    destruct (k_ss _ Ha _ _ Hx) as (E1 & _).
    case_bool_decide; injection Hstep as <-; [|auto]. split.
    - apply kinv_session_make_pending; [exact Ha|rewrite E1; exact Hx].
    - apply idx_session_make_pending; [exact Ha|exact Hq|rewrite E1; exact Hx]. }
  apply G.
Qed.

Lemma idx_h_sess_start s from id nd s' : kinv_sess s -> idx_sess s -> h_sess_start s from id nd = Ok s' -> idx_sess s'.
Proof.
  intros [KA KB] Hi H. apply h_sess_start_effect in H as (sb & n & latest & _ & _ & _ & _ & _ & _ & _ & _ & ->).
  apply (idx_sess_insert s _ (new_session s id (ta_bytes from) (ta_bytes nd)) Hi); try reflexivity.
  simpl. destruct (sessions s !! (sess_count s + 1)) eqn:E0; [|reflexivity]. destruct (KA _ _ E0) as (_ & ? & _). lia.
Qed.

Lemma idx_h_sess_update s from id u d du ok s' : kinv_sess s -> idx_sess s -> h_sess_update s from id u d du ok = Ok s' -> idx_sess s'.
Proof.
  intros Hk Hi H. apply h_sess_update_effect in H as (x & Hx & _ & _ & _ & ->).
  destruct (k_ss _ Hk _ _ Hx) as (Eid & _). subst id. unfold session_update_state, session_reported.
  case_bool_decide; [eapply (idx_sess_update s _ x _ Hi Hx)|eapply (idx_sess_update_same s _ x _ Hi Hx)]; reflexivity.
Qed.

Lemma idx_h_sess_end s from id s' : kinv_sess s -> idx_sess s -> h_sess_end s from id = Ok s' -> idx_sess s'.
Proof.
  intros Hk Hix H. apply h_sess_end_effect in H as (x & Hx & _ & _ & ->). destruct (k_ss _ Hk _ _ Hx) as (E1 & _).
  apply idx_session_make_pending; [exact Hk|exact Hix|rewrite E1; exact Hx].
Qed.

Lemma idx_session_expire_one s e s' : kinv_sess s -> idx_sess s -> session_expire_one s e = Ok s' -> idx_sess s'.
Proof.
  intros Hk Hi H. apply session_expire_one_effect in H as (x & Hx & H).
  destruct (k_ss _ Hk _ _ Hx) as (E1 & _). rewrite <- E1 in Hx.
  destruct H as [[_ ->]|(_ & _ & s1 & Hh & ->)]; [apply idx_session_make_pending; assumption|].
  destruct (keeps_sess _ _ _ (session_inactive_hook_keeps _ _ _ _ _ _ Hh) eq_refl) as (_ & F1 & F2 & F3 & F4 & F5 & F6).
  simpl in F1, F2, F3, F4, F5, F6.
  eapply (idx_sess_delete s _ x); [exact Hi|exact Hx|..]; simpl; congruence.
Qed.
