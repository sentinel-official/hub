(* C04 (last sentence, at the level of the EVENT LIST the chain emits): in the events of one whole operation
   the removal event of a session ("session.EventUpdateStatus" with status inactive and the session's
   identifier) occurs exactly once if the record disappears in this operation and not at all otherwise; the
   settlement payment event of that session ("subscription.EventPayForSession") occurs at most as often, i.e.
   at most once and only in the operation that removes the record; an hourly payout event
   ("subscription.EventPayForPayout") for a payout occurs only in a begin-blocker, as often as that payout's
   remaining hours go down.  The event list is the one the correspondence check compares with the real chain's. *)
From Hub Require Import Base.Prelude Base.Arith Model.Types Model.Keeper Model.Handlers Model.Hooks Model.Step.
From Hub Require Import Proofs.Tactics Proofs.Effects Proofs.Sorting Proofs.Frames Proofs.KeysInv Proofs.Lifecycle
  Proofs.IndexSess Proofs.InvDefs Proofs.IndexSub Proofs.IndexSub2 Proofs.IndexAll Proofs.Link Proofs.CauseSess.

(** * the three kinds of event the property speaks about *)

Definition name_is (e : event) (n : string) : bool := String.eqb e.1 n.

Definition is_removed_ev (id : Z) (e : event) : bool :=
  name_is e "session.EventUpdateStatus"%string &&
  match e.2 with [VS SInactive; _; _; VZ i; _] => i =? id | _ => false end.
Definition is_paysess_ev (id : Z) (e : event) : bool :=
  name_is e "subscription.EventPayForSession"%string &&
  match e.2 with [_; _; _; _; VZ i; _] => i =? id | _ => false end.
Definition is_payout_ev (id : Z) (e : event) : bool :=
  name_is e "subscription.EventPayForPayout"%string &&
  match e.2 with [_; _; _; _; VZ i] => i =? id | _ => false end.

(* anything that could be one of them *)
Definition loud (e : event) : bool :=
  (name_is e "session.EventUpdateStatus"%string && match e.2 with VS SInactive :: _ => true | _ => false end) ||
  name_is e "subscription.EventPayForSession"%string || name_is e "subscription.EventPayForPayout"%string.

Fixpoint cnt (f : event -> bool) (l : list event) : Z :=
  match l with [] => 0 | e :: l' => (if f e then 1 else 0) + cnt f l' end.

Lemma cnt_app f l1 l2 : cnt f (l1 ++ l2) = cnt f l1 + cnt f l2.
Proof. induction l1 as [|e l1 IH]; simpl; [reflexivity|rewrite IH; lia]. Qed.
Lemma cnt_nonneg f l : 0 <= cnt f l.
Proof. induction l as [|e l IH]; simpl; [lia|destruct (f e); lia]. Qed.
Lemma cnt_quiet (f L : event -> bool) l :
  (forall e, f e = true -> L e = true) -> forallb (fun e => negb (L e)) l = true -> cnt f l = 0.
Proof.
  intros Hf. induction l as [|e l IH]; simpl; [reflexivity|]. intros H. apply andb_true_iff in H as [H1 H2].
  rewrite (IH H2). destruct (f e) eqn:E; [|reflexivity]. rewrite (Hf _ E) in H1. discriminate.
Qed.

Lemma removed_loud id e : is_removed_ev id e = true -> loud e = true.
Proof.
  unfold is_removed_ev, loud. intros H. apply andb_true_iff in H as [H1 H2]. rewrite H1. simpl.
  destruct (e.2) as [|[]]; try discriminate. destruct s; try discriminate. reflexivity.
Qed.
Lemma paysess_loud id e : is_paysess_ev id e = true -> loud e = true.
Proof. unfold is_paysess_ev, loud. intros H. apply andb_true_iff in H as [H1 H2]. rewrite H1. rewrite orb_true_r. reflexivity. Qed.
Lemma payout_loud id e : is_payout_ev id e = true -> loud e = true.
Proof. unfold is_payout_ev, loud. intros H. apply andb_true_iff in H as [H1 H2]. rewrite H1. rewrite orb_true_r. reflexivity. Qed.

(** * quiet extensions of the event list *)

Definition evq_list (L : event -> bool) (a b : list event) : Prop :=
  exists l, b = a ++ l /\ forallb (fun e => negb (L e)) l = true.
Lemma evq_list_refl L a : evq_list L a a.
Proof. exists []. rewrite app_nil_r. auto. Qed.
Lemma evq_list_app L a b l : evq_list L a b -> forallb (fun e => negb (L e)) l = true -> evq_list L a (b ++ l).
Proof.
  intros (l0 & -> & F0) F. exists (l0 ++ l). rewrite app_assoc. split; [reflexivity|]. rewrite forallb_app, F0, F. reflexivity.
Qed.
Lemma evq_list_snoc L a b e : evq_list L a b -> L e = false -> evq_list L a (b ++ [e]).
Proof. intros H He. apply evq_list_app; [exact H|]. simpl. rewrite He. reflexivity. Qed.

Definition evq (L : event -> bool) (s s' : state) : Prop := evq_list L (events s) (events s').

Lemma evq_refl L s : evq L s s.
Proof. apply evq_list_refl. Qed.
Lemma evq_trans L a b c : evq L a b -> evq L b c -> evq L a c.
Proof. intros H (l2 & E2 & F2). unfold evq. rewrite E2. apply evq_list_app; assumption. Qed.
Lemma evq_cnt f L s s' : (forall e, f e = true -> L e = true) -> evq L s s' -> cnt f (events s') = cnt f (events s).
Proof. intros Hf (l & E & F). rewrite E, cnt_app, (cnt_quiet f L l Hf F). lia. Qed.

(* after inversion, every intermediate state is a quiet extension of its predecessor and the result is an
   explicit term: normalise its event list (left-nested appends) and peel it from the right *)
Ltac evq_open :=
  repeat match goal with H : evq _ _ _ |- _ => let l := fresh "l" in let E := fresh "E" in let F := fresh "F" in destruct H as (l & E & F) end.
Ltac evq_close :=
  evq_open; unfold evq;
  repeat match goal with H : events _ = ?t |- _ => match t with context [if ?b then _ else _] => destruct b end end;
  repeat match goal with H : events _ = _ |- _ => progress simpl in H end;
  repeat match goal with |- context [events (if ?b then _ else _)] => destruct b end;
  simpl;
  repeat match goal with H : events ?y = _ |- context [events ?y] => rewrite H end;
  repeat first [ apply evq_list_refl | apply evq_list_snoc; [|reflexivity] | apply evq_list_app; [|assumption] ].

(** * keeper primitives *)

Lemma bank_send_ev s f t d a s' : bank_send s f t d a = Ok s' -> events s' = events s.
Proof. unfold bank_send. intros H. res_inv; reflexivity. Qed.
Lemma bank_send_to_account_ev s f t d a s' : bank_send_to_account s f t d a = Ok s' -> events s' = events s.
Proof. unfold bank_send_to_account. intros H. res_inv. eapply bank_send_ev; eauto. Qed.
Lemma bank_mint_ev s m d a s' : bank_mint s m d a = Ok s' -> events s' = events s.
Proof. unfold bank_mint. intros H. res_inv; reflexivity. Qed.
Lemma dep_store_ev s f dep : events (dep_store s f dep) = events s.
Proof. unfold dep_store. case_bool_decide; reflexivity. Qed.

Lemma dep_add_evq s a d amt s' : dep_add s a d amt = Ok s' -> evq loud s s'.
Proof. unfold dep_add. intros H. res_inv. apply bank_send_ev in Hx. evq_close. Qed.
Lemma dep_to_account_evq s f t d a s' : dep_to_account s f t d a = Ok s' -> evq loud s s'.
Proof.
  unfold dep_to_account. intros H. res_inv. apply bank_send_to_account_ev in Hx0.
  exists [ev "deposit.EventSubtract" [VT (canon RAcc f); VC [(d, a)]]]. simpl. rewrite dep_store_ev, Hx0. auto.
Qed.
Lemma dep_to_module_evq s f m d a s' : dep_to_module s f m d a = Ok s' -> evq loud s s'.
Proof.
  unfold dep_to_module. intros H. res_inv. apply bank_send_ev in Hx0.
  exists [ev "deposit.EventSubtract" [VT (canon RAcc f); VC [(d, a)]]]. simpl. rewrite dep_store_ev, Hx0. auto.
Qed.
Lemma z_send_ev s f t c s' : z_send s f t c = Ok s' -> events s' = events s.
Proof. unfold z_send. intros H. res_inv; [reflexivity|eapply bank_send_ev; eauto]. Qed.
Lemma fund_pool_ev s f c s' : fund_pool s f c = Ok s' -> events s' = events s.
Proof. unfold fund_pool. intros H. res_inv; [reflexivity|eapply bank_send_ev; eauto]. Qed.
Lemma z_dep_add_evq s a c s' : z_dep_add s a c = Ok s' -> evq loud s s'.
Proof. unfold z_dep_add. intros H. res_inv; [apply evq_refl|eapply dep_add_evq; eauto]. Qed.
Lemma z_dep_to_account_evq s f t c s' : z_dep_to_account s f t c = Ok s' -> evq loud s s'.
Proof. unfold z_dep_to_account. intros H. res_inv; [apply evq_refl|eapply dep_to_account_evq; eauto]. Qed.
Lemma z_dep_to_module_evq s f t c s' : z_dep_to_module s f t c = Ok s' -> evq loud s s'.
Proof. unfold z_dep_to_module. intros H. res_inv; [apply evq_refl|eapply dep_to_module_evq; eauto]. Qed.
Lemma set_provider_ev s p s' : set_provider s p = Ok s' -> events s' = events s.
Proof. unfold set_provider. intros H. destruct (pv_status p); res_inv; reflexivity. Qed.
Lemma set_node_ev s p s' : set_node s p = Ok s' -> events s' = events s.
Proof. unfold set_node. intros H. destruct (nd_status p); res_inv; reflexivity. Qed.
Lemma set_plan_ev s p s' : set_plan s p = Ok s' -> events s' = events s.
Proof. unfold set_plan. intros H. destruct (pl_status p); res_inv; reflexivity. Qed.

Ltac ev_hyps :=
  repeat match goal with
  | H : bank_send _ _ _ _ _ = Ok _ |- _ => apply bank_send_ev in H
  | H : bank_send_to_account _ _ _ _ _ = Ok _ |- _ => apply bank_send_to_account_ev in H
  | H : bank_mint _ _ _ _ = Ok _ |- _ => apply bank_mint_ev in H
  | H : dep_add _ _ _ _ = Ok _ |- _ => apply dep_add_evq in H
  | H : dep_to_account _ _ _ _ _ = Ok _ |- _ => apply dep_to_account_evq in H
  | H : dep_to_module _ _ _ _ _ = Ok _ |- _ => apply dep_to_module_evq in H
  | H : z_send _ _ _ _ = Ok _ |- _ => apply z_send_ev in H
  | H : fund_pool _ _ _ = Ok _ |- _ => apply fund_pool_ev in H
  | H : z_dep_add _ _ _ = Ok _ |- _ => apply z_dep_add_evq in H
  | H : z_dep_to_account _ _ _ _ = Ok _ |- _ => apply z_dep_to_account_evq in H
  | H : z_dep_to_module _ _ _ _ = Ok _ |- _ => apply z_dep_to_module_evq in H
  | H : set_provider _ _ = Ok _ |- _ => apply set_provider_ev in H
  | H : set_node _ _ = Ok _ |- _ => apply set_node_ev in H
  | H : set_plan _ _ = Ok _ |- _ => apply set_plan_ev in H
  end.

(** * message handlers emit none of the three *)

Lemma create_sub_for_node_evq s acc nd g h dn s' id : create_sub_for_node s acc nd g h dn = Ok (s', id) -> evq loud s s'.
Proof.
  intros H. destruct (create_sub_for_node_effect _ _ _ _ _ _ _ _ H) as (n & inact & dep & s1 & _ & _ & _ & Hd & _ & ->).
  eapply evq_trans; [exact (z_dep_add_evq _ _ _ _ Hd)|]. eexists. split; [reflexivity|]. destruct (g =? 0), (h =? 0); reflexivity.
Qed.
Lemma create_sub_for_plan_evq s acc pid dn s' id : create_sub_for_plan s acc pid dn = Ok (s', id) -> evq loud s s'.
Proof.
  intros H. destruct (create_sub_for_plan_effect _ _ _ _ _ _ H) as (p & price & fee & s1 & s2 & _ & _ & _ & _ & _ & _ & H1 & H2 & _ & _ & ->).
  eexists. cbn [plan_purchase_state events set]. rewrite (z_send_ev _ _ _ _ _ H2), (z_send_ev _ _ _ _ _ H1). split; reflexivity.
Qed.

Lemma session_make_pending_evq s x : evq loud s (session_make_pending s x).
Proof. unfold session_make_pending. evq_close. Qed.
Lemma sub_pending_hook_evq s id s' : sub_pending_hook s id = Ok s' -> evq loud s s'.
Proof.
  unfold sub_pending_hook. apply (rfold_rel (evq loud)); [apply evq_refl|apply evq_trans|].
  intros y sid y' H. destruct (sessions y !! sid) as [x|]; [|discriminate]. case_bool_decide; injection H as <-; [apply session_make_pending_evq|apply evq_refl].
Qed.
Lemma handle_evq s m s' : handle s m = Ok s' -> evq loud s s'.
Proof.
  intros H. destruct m; simpl in H.
  - destruct (h_prov_register_effect _ _ _ _ _ _ _ H) as (s1 & _ & Hf & ->). apply fund_pool_ev in Hf.
    eexists. simpl. rewrite Hf. split; reflexivity.
  - unfold h_prov_update in H. destruct (get_provider s _); [|discriminate].
    match type of H with (let '(_, _) := ?pp in _) = _ => destruct pp as [s1 p2] eqn:Ep end.
    apply rbind_ok in H as (s2 & Hs & H). injection H as <-. apply set_provider_ev in Hs.
    assert (E1 : events s1 = events s) by (repeat case_bool_decide; injection Ep as <- _; reflexivity).
    eexists. simpl. rewrite Hs, E1. split; reflexivity.
  - destruct (h_node_register_effect _ _ _ _ _ _ H) as (s1 & _ & _ & _ & Hf & ->). apply fund_pool_ev in Hf.
    eexists. simpl. rewrite Hf. split; reflexivity.
  - unfold h_node_update_details in H. res_inv; ev_hyps; evq_close.
  - destruct (h_node_update_status_effect _ _ _ _ H) as (n & _ & _ & ->). eexists. split; reflexivity.
  - destruct (h_node_subscribe_effect _ _ _ _ _ _ _ H) as (s1 & id & _ & _ & Hc & ->).
    eapply evq_trans; [exact (create_sub_for_node_evq _ _ _ _ _ _ _ _ Hc)|]. eexists. split; reflexivity.
  - unfold h_plan_create in H. res_inv; ev_hyps; evq_close.
  - unfold h_plan_update_status in H. res_inv; ev_hyps; evq_close.
  - unfold h_plan_link in H. res_inv; evq_close.
  - unfold h_plan_unlink in H. res_inv; evq_close.
  - destruct (h_plan_subscribe_effect _ _ _ _ _ H) as (s1 & id0 & Hc & ->).
    eapply evq_trans; [exact (create_sub_for_plan_evq _ _ _ _ _ _ Hc)|]. eexists. split; reflexivity.
  - destruct (h_sub_cancel_effect _ _ _ _ H) as (sb & s2 & _ & _ & _ & Hh & Hd).
    eapply evq_trans; [exact (sub_pending_hook_evq _ _ _ Hh)|]. eexists.
    split; [apply (sub_demote_fields _ _ _ _ Err _ Hh ltac:(intros ?; discriminate) Hd)|reflexivity].
  - destruct (h_sub_allocate_effect _ _ _ _ _ _ H) as (sb & fal & E). cbv zeta in E. destruct E as (_ & _ & _ & _ & _ & _ & _ & _ & _ & ->).
    eexists. split; [symmetry; apply (app_assoc _ [_] [_])|reflexivity].
  - destruct (h_sess_start_effect _ _ _ _ _ H) as (sb & n & latest & _ & _ & _ & _ & _ & _ & _ & _ & ->).
    eexists. split; reflexivity.
  - destruct (h_sess_update_effect _ _ _ _ _ _ _ _ H) as (x & _ & _ & _ & _ & ->). eexists. split; reflexivity.
  - destruct (h_sess_end_effect _ _ _ _ H) as (x & _ & _ & _ & ->). apply session_make_pending_evq.
  - destruct (h_swap_effect _ _ _ _ _ _ H) as (s1 & s2 & E). cbv zeta in E. destruct E as (_ & _ & _ & _ & H1 & H2 & ->).
    apply bank_mint_ev in H1. apply bank_send_to_account_ev in H2. eexists. simpl. rewrite H2, H1. split; reflexivity.
Qed.

(** * block hooks *)

Lemma mint_loop_ev l : forall s s', mint_loop l s = Ok s' -> events s' = events s.
Proof.
  induction l as [|it l IH]; intros s s' H; simpl in H; [injection H as <-; reflexivity|].
  destruct (now s <? inf_ts it); [injection H as <-; reflexivity|]. res_inv. rewrite (IH _ _ H). reflexivity.
Qed.

Lemma node_end_block_evq s s' : node_end_block s = Ok s' -> evq loud s s'.
Proof.
  unfold node_end_block. intros H. apply rbind_ok in H as (s1 & H1 & H2).
  apply (evq_trans _ _ s1).
  - destruct (_ || _); [|injection H1 as <-; apply evq_refl].
    revert H1. apply (rfold_rel (evq loud)); [apply evq_refl|apply evq_trans|].
    intros y n y' H. unfold node_sweep_one in H. res_inv; ev_hyps; evq_close.
  - revert H2. apply (rfold_rel (evq loud)); [apply evq_refl|apply evq_trans|].
    intros y e y' H. unfold node_expire_one in H. res_inv; ev_hyps; evq_close.
Qed.

Lemma sub_refund_evq s sb s' : sub_refund s sb = Ok s' -> evq loud s s'.
Proof.
  assert (R : forall a b c y, refunded a sb b c y -> evq loud a y).
  { intros a b c y (_ & s0 & H0 & ->). eapply evq_trans; [exact (z_dep_to_account_evq _ _ _ _ _ H0)|]. eexists. split; reflexivity. }
  intros H. apply sub_refund_effect in H. destruct (sb_kind sb) as [nd g h dep|]; [|subst s'; apply evq_refl].
  destruct H as (s1 & H1 & H2). apply (evq_trans _ _ s1).
  - destruct (g =? 0); [subst s1; apply evq_refl|]. destruct H1 as (al & paid & _ & _ & _ & H1). exact (R _ _ _ _ H1).
  - destruct (h =? 0); [subst s'; apply evq_refl|]. destruct H2 as (po & _ & H2). exact (R _ _ _ _ H2).
Qed.
Lemma sub_cleanup_ev s sb : events (sub_cleanup s sb) = events s.
Proof.
  unfold sub_cleanup. destruct (sb_kind sb); [reflexivity|].
  generalize (allocs_for s (sb_id sb)). intros l.
  set (s0 := s <| sub_plan ::= _ |>). change (events s) with (events s0). generalize s0. clear.
  induction l as [|al l IH]; intros y; simpl; [reflexivity|]. rewrite IH. reflexivity.
Qed.
Lemma sub_expire_one_evq s e s' : sub_expire_one s e = Ok s' -> evq loud s s'.
Proof.
  intros H. destruct (sub_expire_one_effect _ _ _ H) as (sb & _ & [(_ & s1 & Hp & Hd)|(_ & s1 & Hr & Hd)]).
  - eapply evq_trans; [exact (sub_pending_hook_evq _ _ _ Hp)|]. eexists.
    split; [apply (sub_demote_fields _ _ _ _ Panic _ Hp ltac:(intros ?; discriminate) Hd)|reflexivity].
  - eapply evq_trans; [exact (sub_refund_evq _ _ _ Hr)|].
    exists [ev "subscription.EventUpdateStatus" [VS SInactive; VT (canon RAcc (sb_addr sb)); VZ (sb_id sb)]]. split; [|reflexivity].
    apply sub_delete_payout_effect in Hd. destruct (payout_of _ sb) as [[po|]|]; [|destruct Hd|]; subst s'; simpl; rewrite sub_cleanup_ev; reflexivity.
Qed.
Lemma sub_end_block_evq s s' : sub_end_block s = Ok s' -> evq loud s s'.
Proof. unfold sub_end_block. apply (rfold_rel (evq loud)); [apply evq_refl|apply evq_trans|]. intros; eapply sub_expire_one_evq; eauto. Qed.


(** * the session end-blocker: removal events and settlement payments are tied to the disappearing record *)

Definition pres (s : state) (id : Z) : Z := if sessions s !! id then 1 else 0.

Lemma paysess_settle id x dn p f : is_paysess_ev id (settle_event x dn p f) = (ss_id x =? id).
Proof. reflexivity. Qed.

Lemma session_inactive_hook_counts s sid acc nd b s' x id :
  session_inactive_hook s sid acc nd b = Ok s' -> sessions s !! sid = Some x ->
  cnt (is_removed_ev id) (events s') = cnt (is_removed_ev id) (events s) /\
  cnt (is_payout_ev id) (events s') = cnt (is_payout_ev id) (events s) /\
  cnt (is_paysess_ev id) (events s') <= cnt (is_paysess_ev id) (events s) + (if ss_id x =? id then 1 else 0).
Proof.
  intros H Hx. destruct (session_inactive_hook_effect _ _ _ _ _ _ H) as (x0 & sb & Hx0 & _ & _ & E).
  rewrite Hx in Hx0. injection Hx0 as <-.
  assert (U : forall al u f, cnt f (events (usage_state s al u)) =
                             cnt f (events s) + cnt f [ev "subscription.EventAllocate" [VT (canon RAcc (al_addr al)); VZ (al_granted al); VZ u; VZ (al_id al)]])
    by (intros; apply cnt_app).
  assert (N : 0 <= if ss_id x =? id then 1 else 0) by (destruct (ss_id x =? id); lia).
  destruct (sb_kind sb) as [n g h dep|pid dn].
  - destruct (negb (h =? 0)); [subst s'; lia|]. destruct E as (al & _ & E). cbv zeta in E.
    destruct (g =? 0); [subst s'; rewrite !U; simpl; lia|].
    destruct E as (prev & cur & fee & s2 & s3 & _ & _ & _ & _ & _ & _ & H2 & H3 & ->).
    apply z_dep_to_module_evq in H2. apply z_dep_to_account_evq in H3.
    cbn [emit events set]. rewrite !cnt_app.
    rewrite (evq_cnt _ loud _ _ (removed_loud id) H3), (evq_cnt _ loud _ _ (removed_loud id) H2),
      (evq_cnt _ loud _ _ (payout_loud id) H3), (evq_cnt _ loud _ _ (payout_loud id) H2),
      (evq_cnt _ loud _ _ (paysess_loud id) H3), (evq_cnt _ loud _ _ (paysess_loud id) H2), !U.
    cbn [cnt]. rewrite paysess_settle. simpl. destruct (ss_id x =? id); lia.
  - destruct E as (al & _ & ->). rewrite !U. simpl. lia.
Qed.

Lemma removed_status id x : is_removed_ev id (session_status_event SInactive x) = (ss_id x =? id).
Proof. reflexivity. Qed.

Lemma session_expire_one_counts s e s' x id :
  sessions s !! e.2 = Some x -> ss_id x = e.2 -> session_expire_one s e = Ok s' ->
  cnt (is_removed_ev id) (events s') + pres s' id = cnt (is_removed_ev id) (events s) + pres s id /\
  cnt (is_paysess_ev id) (events s') + pres s' id <= cnt (is_paysess_ev id) (events s) + pres s id /\
  cnt (is_payout_ev id) (events s') = cnt (is_payout_ev id) (events s).
Proof.
  intros Hx Eid H. destruct (session_expire_one_sessions _ _ _ _ Hx Eid H) as (_ & _ & Es).
  unfold pres. rewrite Es. destruct (session_expire_one_effect _ _ _ H) as (x0 & Hx0 & E).
  rewrite Hx in Hx0. injection Hx0 as <-.
  destruct E as [(Hact & ->)|(Hact & _ & s1 & Hh & ->)]; [rewrite bool_decide_eq_true_2 by exact Hact|rewrite bool_decide_eq_false_2 by exact Hact].
  - simpl. rewrite !cnt_app. simpl.
    destruct (decide (e.2 = id)) as [<-|Hne]; [rewrite lookup_insert, Hx|rewrite lookup_insert_ne by exact Hne]; lia.
  - destruct (session_inactive_hook_counts _ _ _ _ _ _ x id Hh) as (C1 & C2 & QP); [rewrite Eid; exact Hx|]. simpl in C1, C2, QP.
    simpl. rewrite !cnt_app. simpl. rewrite C1, C2. rewrite Eid in *.
    destruct (decide (e.2 = id)) as [<-|Hne].
    + rewrite removed_status, Eid, lookup_delete, Hx, Z.eqb_refl in *. lia.
    + rewrite removed_status, Eid, lookup_delete_ne by exact Hne. replace (e.2 =? id) with false in * by (symmetry; apply Z.eqb_neq; exact Hne). simpl. lia.
Qed.

Lemma session_end_block_counts s s' id :
  kinv s -> session_end_block s = Ok s' ->
  cnt (is_removed_ev id) (events s') + pres s' id = cnt (is_removed_ev id) (events s) + pres s id /\
  cnt (is_paysess_ev id) (events s') + pres s' id <= cnt (is_paysess_ev id) (events s) + pres s id /\
  cnt (is_payout_ev id) (events s') = cnt (is_payout_ev id) (events s).
Proof.
  intros Hi H. unfold session_end_block in H.
  set (P := fun y => kinv y /\
     cnt (is_removed_ev id) (events y) + pres y id = cnt (is_removed_ev id) (events s) + pres s id /\
     cnt (is_paysess_ev id) (events y) + pres y id <= cnt (is_paysess_ev id) (events s) + pres s id /\
     cnt (is_payout_ev id) (events y) = cnt (is_payout_ev id) (events s)).
  assert (G : P s'); [|destruct G as (_ & G); exact G].
  eapply (rfold_inv P); [| |exact H].
  - intros y e y' (Ky & A & B & C) Hs. split; [eapply kinv_session_expire_one; eauto|].
    destruct (session_expire_one_effect _ _ _ Hs) as (x & Hx & _).
    destruct (k_ss _ (ki_sess _ Ky) _ _ Hx) as (Eid & _).
    destruct (session_expire_one_counts y e y' x id Hx Eid Hs) as (A' & B' & C'). lia.
  - split; [exact Hi|]. lia.
Qed.

(** * the begin-blocker: one payout event per hour taken off the payout, at most one per block, only when due *)

Definition hrs (s : state) (id : Z) : Z := match payouts s !! id with Some po => po_hours po | None => 0 end.

Lemma payout_self id a b c d i : is_payout_ev id (ev "subscription.EventPayForPayout" [a; b; c; d; VZ i]) = (i =? id).
Proof. reflexivity. Qed.

Lemma payout_step_counts s e s' po id :
  payouts s !! e.2 = Some po -> po_id po = e.2 -> payout_step s e = Ok s' ->
  cnt (is_payout_ev id) (events s') = cnt (is_payout_ev id) (events s) + (if e.2 =? id then 1 else 0) /\
  cnt (is_removed_ev id) (events s') = cnt (is_removed_ev id) (events s) /\
  cnt (is_paysess_ev id) (events s') = cnt (is_paysess_ev id) (events s).
Proof.
  intros Hpo Eid H. destruct (payout_step_effect _ _ _ H) as (po0 & fee & s2 & s3 & Hpo0 & _ & _ & H2 & H3 & ->).
  rewrite Hpo in Hpo0. injection Hpo0 as <-.
  apply z_dep_to_module_evq in H2. apply z_dep_to_account_evq in H3.
  cbn [payout_state events set]. rewrite !cnt_app.
  rewrite (evq_cnt _ loud _ _ (removed_loud id) H3), (evq_cnt _ loud _ _ (removed_loud id) H2),
    (evq_cnt _ loud _ _ (payout_loud id) H3), (evq_cnt _ loud _ _ (payout_loud id) H2),
    (evq_cnt _ loud _ _ (paysess_loud id) H3), (evq_cnt _ loud _ _ (paysess_loud id) H2).
  cbn [cnt]. rewrite payout_self, Eid. simpl. destruct (e.2 =? id); repeat split; lia.
Qed.

Lemma sub_begin_block_counts s s' id :
  kinv s -> idx_sub s -> sub_begin_block s = Ok s' ->
  cnt (is_removed_ev id) (events s') = cnt (is_removed_ev id) (events s) /\
  cnt (is_paysess_ev id) (events s') = cnt (is_paysess_ev id) (events s) /\
  let k := cnt (is_payout_ev id) (events s') - cnt (is_payout_ev id) (events s) in
  (k = 0 /\ payouts s' !! id = payouts s !! id) \/
  (k = 1 /\ exists po, payouts s !! id = Some po /\ po_next_at po <= now s /\ 0 < po_hours po /\
            (exists sb, subs s !! id = Some sb /\ sb_status sb = SActive) /\
            payouts s' !! id = Some (po <| po_hours := po_hours po - 1 |>
                                        <| po_next_at := if po_hours po - 1 =? 0 then tzero else po_next_at po + HOUR |>)).
Proof.
  intros Hi Hix H. unfold sub_begin_block in H.
  set (c0 := cnt (is_payout_ev id) (events s)).
  set (Done := fun (x : state) =>
     cnt (is_payout_ev id) (events x) = c0 + 1 /\ exists po, payouts s !! id = Some po /\ po_next_at po <= now s /\ 0 < po_hours po /\
            (exists sb, subs s !! id = Some sb /\ sb_status sb = SActive) /\
            payouts x !! id = Some (po <| po_hours := po_hours po - 1 |>
                                       <| po_next_at := if po_hours po - 1 =? 0 then tzero else po_next_at po + HOUR |>)).
  set (P := fun (rest : list (time * Z)) (x : state) =>
     kinv x /\ idx_sub x /\ NoDup rest /\ (forall e, e ∈ rest -> e ∈ pay_q x /\ e.1 <= now s) /\
     subs x = subs s /\
     cnt (is_removed_ev id) (events x) = cnt (is_removed_ev id) (events s) /\
     cnt (is_paysess_ev id) (events x) = cnt (is_paysess_ev id) (events s) /\
     ((cnt (is_payout_ev id) (events x) = c0 /\ payouts x !! id = payouts s !! id) \/
      (Done x /\ forall t, (t, id) ∉ rest))).
  assert (G : P [] s').
  { eapply (rfold_rest P); [| |exact H].
    - intros e rest x x' (Hkx & Hixx & Hnd & Hin & Esub & C1 & C2 & C3) Hstep.
      destruct (Hin e ltac:(left)) as [He Hle].
      apply NoDup_cons in Hnd as [Hnotin Hnd].
      destruct e as [t id0]. destruct (proj1 (ix_payq _ Hixx t id0) He) as (po & sb & Hpo & Hnx & Hh & Hsb & Hact).
      destruct (k_po _ (ki_sub _ Hkx) _ _ Hpo) as [Eid _].
      destruct (payout_step_spec x (t, id0) x' po Hpo Hstep) as (E0 & _ & _ & _ & _ & _ & _ & _ & _ & E7 & E8).
      cbv zeta in E7, E8.
      destruct (payout_step_counts x (t, id0) x' po id Hpo Eid Hstep) as (K1 & K2 & K3). simpl in K1.
      assert (Hkx' : kinv x').
      { pose proof (payout_step_keeps _ _ _ Hstep) as Hkeep. kinv_frame Hkeep Hkx. intros _. eapply kinv_payout_step; eauto. apply Hkx. }
      assert (Hixx' : idx_sub x') by (eapply idx_payout_step; eauto; apply Hkx).
      split; [exact Hkx'|]. split; [exact Hixx'|]. split; [exact Hnd|]. split.
      { intros e' He'. destruct (Hin e' ltac:(right; exact He')) as [He'q Hle']. split; [|exact Hle'].
        assert (Hne : e' <> (t, id0)) by (intros ->; contradiction).
        rewrite E8, Hnx, Eid. destruct (0 <? po_hours po - 1); set_solver. }
      split; [congruence|]. split; [congruence|]. split; [congruence|].
      destruct (decide (id0 = id)) as [->|Hne].
      + right. destruct C3 as [[C3 C4]|[_ C3]]; [|exfalso; apply (C3 t); left].
        rewrite Z.eqb_refl in K1. split.
        * split; [lia|]. rewrite C4 in Hpo. exists po. split; [exact Hpo|]. split; [simpl in Hle; lia|]. split; [exact Hh|].
          split; [exists sb; rewrite <- Esub; auto|]. rewrite E7, Eid, lookup_insert. reflexivity.
        * intros t' Ht'. destruct (Hin (t', id) ltac:(right; exact Ht')) as [Hq _].
          destruct (proj1 (ix_payq _ Hixx t' id) Hq) as (po' & _ & Hpo' & Hnx' & _). apply Hnotin. congruence.
      + replace (id0 =? id) with false in K1 by (symmetry; apply Z.eqb_neq; exact Hne).
        destruct C3 as [[C3 C4]|[(D1 & po1 & D2 & D3 & D4 & D5 & D6) C3]].
        * left. split; [lia|]. rewrite E7, Eid, lookup_insert_ne by exact Hne. exact C4.
        * right. split; [|intros t' Ht'; apply (C3 t'); right; exact Ht'].
          split; [lia|]. exists po1. repeat (split; [assumption|]). rewrite E7, Eid, lookup_insert_ne by exact Hne. exact D6.
    - split; [exact Hi|]. split; [exact Hix|]. split; [apply Sorting.NoDup_due_z|]. split.
      { intros e He. apply Sorting.elem_of_due_z in He. tauto. }
      split; [reflexivity|]. split; [reflexivity|]. split; [reflexivity|]. left. split; reflexivity. }
  destruct G as (_ & _ & _ & _ & _ & G1 & G2 & G3). split; [exact G1|]. split; [exact G2|].
  cbv zeta. destruct G3 as [[G3 G4]|[(D1 & D) _]]; [left|right]; (split; [fold c0; lia|assumption]).
Qed.

(** * one whole operation *)

Definition removed_in (s s' : state) (id : Z) : Z :=
  match sessions s !! id, sessions s' !! id with Some _, None => 1 | _, _ => 0 end.

Lemma cnt_clear f s : cnt f (events (clear_events s)) = 0.
Proof. reflexivity. Qed.

Lemma fold_pchange_events cs : forall y, events (fold_left apply_pchange cs y) = events y.
Proof. induction cs as [|c cs IH]; intros y; simpl; [reflexivity|]. rewrite IH. destruct c; reflexivity. Qed.

Lemma begin_block_mint s t s1 :
  life_inv s -> mint_begin_block (clear_events s <| now := t |>) = Ok s1 ->
  kinv s1 /\ idx_sub s1 /\ events s1 = [] /\ now s1 = t /\ sessions s1 = sessions s /\ subs s1 = subs s /\ payouts s1 = payouts s.
Proof.
  intros Hl H1. pose proof (mint_begin_block_keeps _ _ H1) as K1. apply mint_loop_ev in H1.
  destruct (keeps_sub _ _ _ K1 eq_refl) as (_ & Es & _ & _ & _ & _ & _ & Ep & _).
  destruct (keeps_sess _ _ _ K1 eq_refl) as (_ & Ess & _).
  refine (conj _ (conj _ (conj H1 (conj (keeps_now _ _ _ K1 eq_refl) (conj Ess (conj Es Ep)))))).
  - eapply (kinv_other [GMint]); [exact K1|reflexivity..|].
    eapply (kinv_other [GNow] s); [|reflexivity..|exact (ai_k _ (lf_idx _ Hl))].
    unfold keeps. cbn [touched existsb grp_eqb orb unless]. repeat split.
  - apply (idx_sub_keeps _ _ _ K1 eq_refl). eapply idx_sub_frame; [..|exact (ai_sub _ (lf_idx _ Hl))]; reflexivity.
Qed.

Theorem step_session_events s o s' id :
  life_inv s -> step s o = OOk s' ->
  cnt (is_removed_ev id) (events s') = removed_in s s' id /\
  cnt (is_paysess_ev id) (events s') <= removed_in s s' id.
Proof.
  intros Hl Hstep. pose proof (ai_k _ (lf_idx _ Hl)) as Hi. pose proof (ai_sess _ (lf_idx _ Hl)) as Hix.
  unfold removed_in. apply step_inv in Hstep. destruct o.
  - (* begin-blocker: neither event, no session touched *)
    rename Hstep into H. rename s' into y.
    apply begin_block_effect in H as (s1 & H1 & H2).
    destruct (begin_block_mint _ _ _ Hl H1) as (Hk1 & Hx1 & Ev1 & _ & Es1 & _).
    destruct (keeps_sess _ _ _ (sub_begin_block_keeps _ _ H2) eq_refl) as (_ & E & _). rewrite E, Es1.
    destruct (sub_begin_block_counts s1 y id Hk1 Hx1 H2) as (C1 & C2 & _). rewrite C1, C2, Ev1. simpl.
    destruct (sessions s !! id); split; reflexivity || lia.
  - (* a transaction: handlers emit neither, and never delete a session *)
    destruct Hstep as [_ H]. rename s' into y.
    pose proof (handle_evq _ _ _ H) as Q.
    rewrite (evq_cnt (is_removed_ev id) loud _ _ (removed_loud id) Q), (evq_cnt (is_paysess_ev id) loud _ _ (paysess_loud id) Q), !cnt_clear.
    destruct (sessions s !! id) as [x|] eqn:Hx; [|split; reflexivity || lia].
    destruct (handle_sess (clear_events s) m y id x (kinv_clear _ Hi) ltac:(eapply idx_sess_frame; [..|exact Hix]; reflexivity) H Hx)
      as [(x1 & Hx1 & _)|(_ & Hx1 & _)]; rewrite Hx1; split; reflexivity || lia.
  - destruct Hstep as [_ ->]. destruct (keeps_sess _ _ _ (fold_pchange_keeps cs (clear_events s)) eq_refl) as (_ & G1 & _). rewrite G1. simpl.
    assert (E : events (fold_left apply_pchange cs (clear_events s)) = []) by (rewrite fold_pchange_events; reflexivity).
    rewrite E. simpl. destruct (sessions s !! id); split; reflexivity || lia.
  - (* end-blocker *)
    destruct Hstep as (y & H & ->).
    change (events (y <| modified := no_flags |>)) with (events y). change (sessions (y <| modified := no_flags |>)) with (sessions y).
    apply end_block_effect in H as (s1 & s2 & H1 & H2 & H3).
    pose proof (node_end_block_keeps _ _ H1) as K1.
    pose proof (end_inv_node_end_block _ _ (life_end_inv _ (life_clear _ Hl)) H1) as Hinv1.
    destruct (session_end_block_fresh _ _ Hinv1 H2) as (Hinv2 & Sf2 & N2 & P2).
    pose proof (node_end_block_evq _ _ H1) as Q1. pose proof (sub_end_block_evq _ _ H3) as Q3.
    destruct (session_end_block_counts s1 s2 id (ei_k _ Hinv1) H2) as (F1 & F2 & _).
    rewrite (evq_cnt (is_removed_ev id) loud _ _ (removed_loud id) Q3), (evq_cnt (is_paysess_ev id) loud _ _ (paysess_loud id) Q3).
    rewrite (evq_cnt (is_removed_ev id) loud _ _ (removed_loud id) Q1), !cnt_clear in F1.
    rewrite (evq_cnt (is_paysess_ev id) loud _ _ (paysess_loud id) Q1), !cnt_clear in F2.
    destruct (keeps_sess _ _ _ K1 eq_refl) as (_ & E1 & _). change (sessions (clear_events s)) with (sessions s) in E1.
    unfold pres in F1, F2. rewrite E1 in F1, F2.
    assert (E2 : match sessions y !! id with Some _ => 1 | None => 0 end = match sessions s2 !! id with Some _ => 1 | None => 0 end).
    { destruct (sessions s2 !! id) as [x2|] eqn:Hx2.
      - destruct (ei_link _ Hinv2) as [Lk]. destruct (Lk _ _ Hx2) as (sbk & Hsbk & _).
        destruct (sub_end_block_sess_fate s2 y id x2 sbk Hinv2 Sf2 H3 Hx2 Hsbk) as [G|(_ & _ & _ & G)]; rewrite G; reflexivity.
      - rewrite (sub_end_block_sess_none s2 y id (ei_k _ Hinv2) H3 Hx2). reflexivity. }
    pose proof (cnt_nonneg (is_removed_ev id) (events s2)) as N1. pose proof (cnt_nonneg (is_paysess_ev id) (events s2)) as N3.
    destruct (sessions s !! id), (sessions y !! id), (sessions s2 !! id); try discriminate; split; lia.
Qed.

Theorem step_payout_events s o s' id :
  life_inv s -> step s o = OOk s' ->
  let k := cnt (is_payout_ev id) (events s') in
  k = 0 \/
  (k = 1 /\ exists t po, o = OBegin t /\ payouts s !! id = Some po /\ po_next_at po <= t /\ 0 < po_hours po /\
            (exists sb, subs s !! id = Some sb /\ sb_status sb = SActive) /\
            payouts s' !! id = Some (po <| po_hours := po_hours po - 1 |>
                                        <| po_next_at := if po_hours po - 1 =? 0 then tzero else po_next_at po + HOUR |>)).
Proof.
  intros Hl Hstep. pose proof (ai_k _ (lf_idx _ Hl)) as Hi. cbv zeta. apply step_inv in Hstep. destruct o as [t|m|cs|].
  - rename Hstep into H. rename s' into y.
    apply begin_block_effect in H as (s1 & H1 & H2).
    destruct (begin_block_mint _ _ _ Hl H1) as (Hk1 & Hx1 & Ev1 & En & _ & Es & Ep).
    destruct (sub_begin_block_counts s1 y id Hk1 Hx1 H2) as (_ & _ & C). cbv zeta in C. rewrite Ev1 in C. simpl in C.
    rewrite Ep, Es, En in C. destruct C as [[C _]|[C (po & D)]]; [left; lia|right]. split; [lia|]. exists t, po. split; [reflexivity|exact D].
  - left. destruct Hstep as [_ H]. rename s' into y.
    rewrite (evq_cnt (is_payout_ev id) loud _ _ (payout_loud id) (handle_evq _ _ _ H)). reflexivity.
  - left. destruct Hstep as [_ ->].
    assert (E : events (fold_left apply_pchange cs (clear_events s)) = []) by (rewrite fold_pchange_events; reflexivity).
    rewrite E. reflexivity.
  - left. destruct Hstep as (y & H & ->).
    change (events (y <| modified := no_flags |>)) with (events y).
    apply end_block_effect in H as (s1 & s2 & H1 & H2 & H3).
    rewrite (evq_cnt (is_payout_ev id) loud _ _ (payout_loud id) (sub_end_block_evq _ _ H3)).
    assert (Hk1 : kinv s1) by (eapply kinv_node_end_block; [apply kinv_clear; exact Hi|exact H1]).
    destruct (session_end_block_counts s1 s2 id Hk1 H2) as (_ & _ & F). rewrite F.
    rewrite (evq_cnt (is_payout_ev id) loud _ _ (payout_loud id) (node_end_block_evq _ _ H1)). reflexivity.
Qed.

(** * whole histories: the concatenated event list of a run *)

Fixpoint trace (s : state) (ops : list op) : list event :=
  match ops with
  | [] => []
  | o :: r => match step s o with
              | OOk s' => events s' ++ trace s' r
              | ORejected => trace (clear_events s) r
              | OHalt => []
              end
  end.

Lemma sess_count_mono s o s' : kinv s -> step s o = OOk s' -> sess_count s <= sess_count s'.
Proof. intros Hi H. destruct (proj2 (evo_step _ _ _ Hi H)) as [[A _]|[A _ _ _]]; lia. Qed.

Lemma trace_dead ops : forall s id,
  life_inv s -> wf_hist wf_op_life s ops -> sessions s !! id = None -> id <= sess_count s ->
  cnt (is_removed_ev id) (trace s ops) = 0 /\ cnt (is_paysess_ev id) (trace s ops) = 0.
Proof.
  induction ops as [|o r IH]; intros s id Hl Hwf Hn Hle; simpl; [split; reflexivity|].
  destruct Hwf as [Hop Hwf]. destruct (step s o) as [s'| |] eqn:Hstep; [| |split; reflexivity].
  - destruct (step_session_events s o s' id Hl Hstep) as (A & B). unfold removed_in in A, B. rewrite Hn in A, B.
    pose proof (cnt_nonneg (is_paysess_ev id) (events s')) as N.
    destruct (sess_id_not_reissued s o s' id (ai_k _ (lf_idx _ Hl)) Hstep Hle Hn) as [Hn' Hle'].
    destruct (IH s' id (life_step _ _ _ Hl Hop Hstep) Hwf Hn' Hle') as (C & D). rewrite !cnt_app. lia.
  - apply (IH (clear_events s) id (life_clear _ Hl) Hwf); assumption.
Qed.

Theorem trace_settled_at_most_once ops : forall s id,
  life_inv s -> wf_hist wf_op_life s ops ->
  cnt (is_removed_ev id) (trace s ops) <= 1 /\ cnt (is_paysess_ev id) (trace s ops) <= cnt (is_removed_ev id) (trace s ops).
Proof.
  induction ops as [|o r IH]; intros s id Hl Hwf; simpl; [split; lia|].
  destruct Hwf as [Hop Hwf]. destruct (step s o) as [s'| |] eqn:Hstep; [| |simpl; split; lia].
  - destruct (step_session_events s o s' id Hl Hstep) as (A & B).
    pose proof (life_step _ _ _ Hl Hop Hstep) as Hl'. rewrite !cnt_app.
    unfold removed_in in A, B. destruct (sessions s !! id) as [x|] eqn:Hx.
    + destruct (sessions s' !! id) as [x'|] eqn:Hx'.
      * destruct (IH s' id Hl' Hwf) as (C & D). lia.
      * destruct (k_ss _ (ki_sess _ (ai_k _ (lf_idx _ Hl))) _ _ Hx) as (_ & Hid & _).
        pose proof (sess_count_mono _ _ _ (ai_k _ (lf_idx _ Hl)) Hstep) as Hm.
        destruct (trace_dead r s' id Hl' Hwf Hx' ltac:(lia)) as (C & D). lia.
    + destruct (IH s' id Hl' Hwf) as (C & D). lia.
  - apply (IH (clear_events s) id (life_clear _ Hl) Hwf).
Qed.

Theorem trace_settled_exactly_once ops : forall s i s' id x,
  life_inv s -> wf_hist wf_op_life s ops -> run_from s ops i = RunOk s' ->
  sessions s !! id = Some x -> sessions s' !! id = None ->
  cnt (is_removed_ev id) (trace s ops) = 1.
Proof.
  induction ops as [|o r IH]; intros s i s' id x Hl Hwf Hrun Hx Hn; simpl in *.
  - injection Hrun as <-. congruence.
  - destruct Hwf as [Hop Hwf]. destruct (step s o) as [y| |] eqn:Hstep; [| |discriminate].
    + destruct (step_session_events s o y id Hl Hstep) as (A & _).
      pose proof (life_step _ _ _ Hl Hop Hstep) as Hl'. rewrite cnt_app.
      unfold removed_in in A. rewrite Hx in A. destruct (sessions y !! id) as [x'|] eqn:Hx'.
      * rewrite (IH y (S i) s' id x' Hl' Hwf Hrun Hx' Hn). lia.
      * destruct (k_ss _ (ki_sess _ (ai_k _ (lf_idx _ Hl))) _ _ Hx) as (_ & Hid & _).
        pose proof (sess_count_mono _ _ _ (ai_k _ (lf_idx _ Hl)) Hstep) as Hm.
        destruct (trace_dead r y id Hl' Hwf Hx' ltac:(lia)) as (C & _). lia.
    + apply (IH (clear_events s) (S i) s' id x (life_clear _ Hl) Hwf Hrun Hx Hn).
Qed.

(** * whole histories: an hourly payout is paid at most as many times as it has hours *)

Lemma payout_absent_step s o s' id :
  kinv s -> step s o = OOk s' -> payouts s !! id = None -> id <= sub_count s -> payouts s' !! id = None /\ id <= sub_count s'.
Proof.
  intros Hi H Hn Hle. destruct (proj1 (evo_step _ _ _ Hi H)) as [[A _ C]|[A _ _ _ E]].
  - split; [|lia]. destruct (payouts s' !! id) as [x'|] eqn:E'; [|reflexivity]. destruct (C _ _ E') as (x & Hx & _). congruence.
  - split; [|lia]. destruct (payouts s' !! id) as [x'|] eqn:E'; [|reflexivity]. rewrite (E id x') in Hn; [discriminate|lia|exact E'].
Qed.

Lemma trace_payout_absent ops : forall s id,
  life_inv s -> wf_hist wf_op_life s ops -> payouts s !! id = None -> id <= sub_count s ->
  cnt (is_payout_ev id) (trace s ops) = 0.
Proof.
  induction ops as [|o r IH]; intros s id Hl Hwf Hn Hle; simpl; [reflexivity|].
  destruct Hwf as [Hop Hwf]. destruct (step s o) as [s'| |] eqn:Hstep; [| |reflexivity].
  - rewrite cnt_app. destruct (step_payout_events s o s' id Hl Hstep) as [K|(_ & t & po & _ & Hpo & _)]; [|congruence].
    cbv zeta in K. rewrite K. destruct (payout_absent_step s o s' id (ai_k _ (lf_idx _ Hl)) Hstep Hn Hle) as [Hn' Hle'].
    rewrite (IH s' id (life_step _ _ _ Hl Hop Hstep) Hwf Hn' Hle'). reflexivity.
  - apply (IH (clear_events s) id (life_clear _ Hl) Hwf); assumption.
Qed.

Theorem trace_payouts_within_hours ops : forall s id po,
  life_inv s -> wf_hist wf_op_life s ops -> payouts s !! id = Some po ->
  cnt (is_payout_ev id) (trace s ops) <= Z.max 0 (po_hours po).
Proof.
  induction ops as [|o r IH]; intros s id po Hl Hwf Hpo; simpl; [lia|].
  destruct Hwf as [Hop Hwf]. destruct (step s o) as [s'| |] eqn:Hstep; [| |simpl; lia].
  - rewrite cnt_app. pose proof (ai_k _ (lf_idx _ Hl)) as Hi. pose proof (life_step _ _ _ Hl Hop Hstep) as Hl'.
    destruct (k_po _ (ki_sub _ Hi) _ _ Hpo) as (_ & Hid).
    destruct (step_payout_events s o s' id Hl Hstep) as [K|(K & t & po0 & _ & Hpo0 & _ & Hh & _ & Hpo')]; cbv zeta in K; rewrite K.
    + destruct (payouts s' !! id) as [po'|] eqn:Hpo'.
      * pose proof (IH s' id po' Hl' Hwf Hpo') as B.
        assert (Hle : po_hours po' <= po_hours po).
        { destruct (proj1 (evo_step _ _ _ Hi Hstep)) as [[_ _ C]|[_ _ _ _ E]].
          - destruct (C _ _ Hpo') as (x & Hx & S). rewrite Hpo in Hx. injection Hx as <-. destruct S as (_ & _ & _ & _ & S). exact S.
          - rewrite (E id po') in Hpo; [injection Hpo as <-; lia|lia|exact Hpo']. }
        lia.
      * assert (Hle' : id <= sub_count s') by (destruct (proj1 (evo_step _ _ _ Hi Hstep)) as [[A _ _]|[A _ _ _ _]]; lia).
        rewrite (trace_payout_absent r s' id Hl' Hwf Hpo' Hle'). lia.
    + rewrite Hpo in Hpo0. injection Hpo0 as <-. pose proof (IH s' id _ Hl' Hwf Hpo') as B. simpl in B. lia.
  - apply (IH (clear_events s) id po (life_clear _ Hl) Hwf Hpo).
Qed.
