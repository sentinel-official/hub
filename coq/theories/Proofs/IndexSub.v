(* C09 / C04 / C03: the indices of subscriptions, allocations and payouts are exactly the
   images of their primary records, allocations and payouts exist exactly for the live
   subscriptions of the right kind ([idx_sub] of InvDefs.v) — preserved by every operation. *)
From Hub Require Import Base.Prelude Base.Arith Model.Types Model.Keeper Model.Handlers Model.Hooks Model.Step.
From Hub Require Import Proofs.Tactics Proofs.Effects Proofs.Frames Proofs.KeysInv Proofs.IndexSess Proofs.InvDefs.

Lemma idx_sub_frame s s' :
  subs s' = subs s -> allocs s' = allocs s -> payouts s' = payouts s -> sub_q s' = sub_q s -> sub_acc s' = sub_acc s ->
  sub_node s' = sub_node s -> sub_plan s' = sub_plan s -> pay_q s' = pay_q s -> pay_acc s' = pay_acc s ->
  pay_node s' = pay_node s -> pay_acc_node s' = pay_acc_node s -> idx_sub s -> idx_sub s'.
Proof.
  intros E1 E2 E3 E4 E5 E6 E7 E8 E9 E10 E11 [A1 A2 A3 A4 A5 A6 A7 A8 A9 A10 A11 A12 A13].
  split; rewrite ?E1, ?E2, ?E3, ?E4, ?E5, ?E6, ?E7, ?E8, ?E9, ?E10, ?E11; assumption.
Qed.

Lemma idx_sub_keeps T s s' : keeps T s s' -> touched GSub T = false -> idx_sub s -> idx_sub s'.
Proof.
  intros (_ & _ & _ & _ & _ & _ & _ & K & _) Ht. rewrite Ht in K. simpl in K. apply idx_sub_frame; tauto.
Qed.

Lemma idx_sub_emit e s : idx_sub s -> idx_sub (emit e s).
Proof. apply idx_sub_frame; reflexivity. Qed.

(** * freshness of the next identifier *)

Lemma fresh_sub s : kinv_sub s -> forall id, sub_count s < id -> subs s !! id = None.
Proof. intros [A _ _ _] id Hlt. destruct (subs s !! id) eqn:E; [|reflexivity]. destruct (A _ _ E) as (_ & ? & _). lia. Qed.
Lemma fresh_alloc s : kinv_sub s -> forall id a, sub_count s < id -> allocs s !! (id, a) = None.
Proof. intros [_ B _ _] id a Hlt. destruct (allocs s !! (id, a)) eqn:E; [|reflexivity]. destruct (B _ _ E) as (_ & _ & ?). simpl in *. lia. Qed.
Lemma fresh_payout s : kinv_sub s -> forall id, sub_count s < id -> payouts s !! id = None.
Proof. intros [_ _ C _] id Hlt. destruct (payouts s !! id) eqn:E; [|reflexivity]. destruct (C _ _ E) as (_ & ?). lia. Qed.

(** * purchases *)

(* the subscription-side effect of CreateSubscriptionForNode, per gigabyte *)
Lemma create_node_gb_spec s acc nd g dn s' id :
  0 < g -> create_sub_for_node s acc nd g 0 dn = Ok (s', id) ->
  exists dep inact,
    0 <= dep.2 /\ id = sub_count s + 1 /\
    let sb := {| sb_id := id; sb_addr := acc; sb_inactive_at := inact; sb_status := SActive; sb_status_at := now s;
                 sb_kind := KNode nd g 0 dep |} in
    subs s' = <[id := sb]> (subs s) /\ sub_q s' = sub_q s ∪ {[ (inact, id) ]} /\ sub_acc s' = sub_acc s ∪ {[ (acc, id) ]} /\
    sub_node s' = sub_node s ∪ {[ (nd, id) ]} /\ sub_plan s' = sub_plan s /\
    allocs s' = <[(id, acc) := {| al_id := id; al_addr := acc; al_granted := GB * g; al_used := 0 |}]> (allocs s) /\
    payouts s' = payouts s /\ pay_q s' = pay_q s /\ pay_acc s' = pay_acc s /\ pay_node s' = pay_node s /\
    pay_acc_node s' = pay_acc_node s.
Proof.
  intros Hg H. apply create_sub_for_node_effect in H as (n & inact & dep & s1 & _ & _ & (Q & _) & H1 & -> & ->).
  destruct Q as (price & a & _ & _ & _ & Ha & Hd); [lia|]. destruct (Hd eq_refl) as [_ ->].
  destruct (keeps_sub _ _ _ (z_dep_add_keeps _ _ _ _ H1) eq_refl) as (_ & F1 & F2 & F3 & F4 & F5 & F6 & F7 & F8 & F9 & F10 & F11).
  exists (dn, a), inact. split; [exact Ha|]. split; [reflexivity|]. cbv zeta. simpl.
  rewrite (proj2 (Z.eqb_neq g 0)) by lia. rewrite F1, F2, F3, F4, F5, F6, F7, F8, F9, F10, F11. repeat split.
Qed.

(* ... and per hour *)
Lemma create_node_hr_spec s acc nd h dn s' id :
  0 < h -> create_sub_for_node s acc nd 0 h dn = Ok (s', id) ->
  exists dep,
    0 <= dep.2 /\ id = sub_count s + 1 /\
    let sb := {| sb_id := id; sb_addr := acc; sb_inactive_at := now s + h * HOUR; sb_status := SActive; sb_status_at := now s;
                 sb_kind := KNode nd 0 h dep |} in
    let po := {| po_id := id; po_addr := acc; po_node := nd; po_hours := h; po_price := (dep.1, Z.quot dep.2 h);
                 po_next_at := now s |} in
    subs s' = <[id := sb]> (subs s) /\ sub_q s' = sub_q s ∪ {[ (now s + h * HOUR, id) ]} /\ sub_acc s' = sub_acc s ∪ {[ (acc, id) ]} /\
    sub_node s' = sub_node s ∪ {[ (nd, id) ]} /\ sub_plan s' = sub_plan s /\ allocs s' = allocs s /\
    payouts s' = <[id := po]> (payouts s) /\ pay_q s' = pay_q s ∪ {[ (now s, id) ]} /\ pay_acc s' = pay_acc s ∪ {[ (acc, id) ]} /\
    pay_node s' = pay_node s ∪ {[ (nd, id) ]} /\ pay_acc_node s' = pay_acc_node s ∪ {[ (acc, nd, id) ]}.
Proof.
  intros Hh H. apply create_sub_for_node_effect in H as (n & inact & dep & s1 & _ & _ & (_ & Q & _) & H1 & -> & ->).
  destruct Q as (price & _ & _ & Hp & -> & -> & _); [lia|].
  destruct (keeps_sub _ _ _ (z_dep_add_keeps _ _ _ _ H1) eq_refl) as (_ & F1 & F2 & F3 & F4 & F5 & F6 & F7 & F8 & F9 & F10 & F11).
  exists (dn, price * h). split; [exact Hp|]. split; [reflexivity|]. cbv zeta. simpl.
  rewrite (proj2 (Z.eqb_neq h 0)) by lia. rewrite F1, F2, F3, F4, F5, F6, F7, F8, F9, F10, F11. repeat split.
Qed.

Lemma create_plan_spec s acc pid dn s' id :
  create_sub_for_plan s acc pid dn = Ok (s', id) ->
  exists p, get_plan s pid = Some p /\ id = sub_count s + 1 /\
    let sb := {| sb_id := id; sb_addr := acc; sb_inactive_at := now s + pl_duration p; sb_status := SActive; sb_status_at := now s;
                 sb_kind := KPlan pid dn |} in
    subs s' = <[id := sb]> (subs s) /\ sub_q s' = sub_q s ∪ {[ (now s + pl_duration p, id) ]} /\
    sub_acc s' = sub_acc s ∪ {[ (acc, id) ]} /\ sub_node s' = sub_node s /\ sub_plan s' = sub_plan s ∪ {[ (pid, id) ]} /\
    allocs s' = <[(id, acc) := {| al_id := id; al_addr := acc; al_granted := GB * pl_gb p; al_used := 0 |}]> (allocs s) /\
    payouts s' = payouts s /\ pay_q s' = pay_q s /\ pay_acc s' = pay_acc s /\ pay_node s' = pay_node s /\
    pay_acc_node s' = pay_acc_node s.
Proof.
  intros H. apply create_sub_for_plan_effect in H as (p & price & fee & s1 & s2 & Hp & _ & _ & _ & _ & _ & H1 & H2 & _ & -> & ->).
  apply z_send_keeps in H1. apply z_send_keeps in H2. assert (K : keeps [GBank] s s2) by keeps_chain.
  destruct (keeps_sub _ _ _ K eq_refl) as (_ & F1 & F2 & F3 & F4 & F5 & F6 & F7 & F8 & F9 & F10 & F11).
  exists p. split; [exact Hp|]. split; [reflexivity|]. cbv zeta. simpl.
  rewrite F1, F2, F3, F4, F5, F6, F7, F8, F9, F10, F11. repeat split.
Qed.

(* case analysis on every look-up in an updated map *)
Ltac lks :=
  repeat
  match goal with
  | |- context [<[?k := _]> _ !! ?i] =>
      first [ rewrite (lookup_insert _ k)
            | destruct (decide (i = k)) as [?|?]; [simplify_eq; rewrite ?lookup_insert|rewrite lookup_insert_ne by congruence] ]
  | |- context [delete ?k _ !! ?i] =>
      first [ rewrite (lookup_delete _ k)
            | destruct (decide (i = k)) as [?|?]; [simplify_eq; rewrite ?lookup_delete|rewrite lookup_delete_ne by congruence] ]
  end.

Lemma idx_create_node_gb s acc nd g dn s' id :
  kinv_sub s -> idx_sub s -> 0 < g -> create_sub_for_node s acc nd g 0 dn = Ok (s', id) -> idx_sub s'.
Proof.
  intros Hk Hix Hg H. destruct (create_node_gb_spec _ _ _ _ _ _ _ Hg H) as (dep & inact & Hdep & -> & E).
  cbv zeta in E. destruct E as (E1 & E2 & E3 & E4 & E5 & E6 & E7 & E8 & E9 & E10 & E11).
  pose proof (fresh_sub _ Hk (sub_count s + 1) ltac:(lia)) as F1.
  pose proof (fun a => fresh_alloc _ Hk (sub_count s + 1) a ltac:(lia)) as F2.
  pose proof (fresh_payout _ Hk (sub_count s + 1) ltac:(lia)) as F3.
  clear H Hk.
  split; rewrite ?E1, ?E2, ?E3, ?E4, ?E5, ?E6, ?E7, ?E8, ?E9, ?E10, ?E11; clear E1 E2 E3 E4 E5 E6 E7 E8 E9 E10 E11; intros.
  - ix_sets. rewrite (ix_subq _ Hix). clear Hix. lks; rewrite ?F1; timeout 20 naive_solver.
  - ix_sets. rewrite (ix_subnode _ Hix). clear Hix. lks; rewrite ?F1; timeout 20 naive_solver.
  - rewrite (ix_subplan _ Hix). clear Hix. lks; rewrite ?F1; timeout 20 naive_solver.
  - ix_sets. rewrite (ix_subacc _ Hix). clear Hix. lks; rewrite ?F1, ?F2; unfold is_Some; timeout 20 naive_solver.
  - apply (ix_payacc _ Hix).
  - apply (ix_paynode _ Hix).
  - rewrite (ix_payaccnode _ Hix). clear Hix. lks; rewrite ?F1, ?F3; timeout 20 naive_solver.
  - rewrite (ix_payq _ Hix). clear Hix. lks; rewrite ?F1, ?F3; timeout 20 naive_solver.
  - apply lookup_insert_Some in H as [[<- <-]|[? H]]; [simpl; split; [right; split; [lia|reflexivity]|exact Hdep]|eapply (st_kind _ Hix); eauto].
  - apply lookup_insert_Some in H as [[E <-]|[Hne H]].
    + injection E as <- <-. eexists. rewrite lookup_insert. split; [reflexivity|]. split; reflexivity.
    + destruct (st_alloc_sub _ Hix _ _ _ H) as (sb & Hsb & R). exists sb. split; [|exact R].
      rewrite lookup_insert_ne; [exact Hsb|]. intros <-. rewrite F1 in Hsb. discriminate.
  - apply lookup_insert_Some in H as [[<- <-]|[Hne H]].
    + simpl. rewrite lookup_insert. eauto.
    + destruct (st_sub_alloc _ Hix _ _ H H0) as [al Hal]. exists al. rewrite lookup_insert_ne; [exact Hal|]. congruence.
  - destruct (st_pay_sub _ Hix _ _ H) as (Hh & sb & g0 & h0 & d0 & Hsb & R). split; [exact Hh|]. exists sb, g0, h0, d0. split; [|exact R].
    rewrite lookup_insert_ne; [exact Hsb|]. intros <-. rewrite F1 in Hsb. discriminate.
  - apply lookup_insert_Some in H as [[<- <-]|[Hne H]]; [discriminate|]. eapply (st_sub_pay _ Hix); eauto.
Qed.

Lemma idx_create_node_hr s acc nd h dn s' id :
  kinv_sub s -> idx_sub s -> 0 < h -> create_sub_for_node s acc nd 0 h dn = Ok (s', id) -> idx_sub s'.
Proof.
  intros Hk Hix Hh H. destruct (create_node_hr_spec _ _ _ _ _ _ _ Hh H) as (dep & Hdep & -> & E).
  cbv zeta in E. destruct E as (E1 & E2 & E3 & E4 & E5 & E6 & E7 & E8 & E9 & E10 & E11).
  pose proof (fresh_sub _ Hk (sub_count s + 1) ltac:(lia)) as F1.
  pose proof (fun a => fresh_alloc _ Hk (sub_count s + 1) a ltac:(lia)) as F2.
  pose proof (fresh_payout _ Hk (sub_count s + 1) ltac:(lia)) as F3.
  clear H Hk.
  split; rewrite ?E1, ?E2, ?E3, ?E4, ?E5, ?E6, ?E7, ?E8, ?E9, ?E10, ?E11; clear E1 E2 E3 E4 E5 E6 E7 E8 E9 E10 E11; intros.
  - ix_sets. rewrite (ix_subq _ Hix). clear Hix. lks; rewrite ?F1; timeout 20 naive_solver.
  - ix_sets. rewrite (ix_subnode _ Hix). clear Hix. lks; rewrite ?F1; timeout 20 naive_solver.
  - rewrite (ix_subplan _ Hix). clear Hix. lks; rewrite ?F1; timeout 20 naive_solver.
  - ix_sets. rewrite (ix_subacc _ Hix). clear Hix. lks; rewrite ?F1, ?F2; unfold is_Some; timeout 20 naive_solver.
  - ix_sets. rewrite (ix_payacc _ Hix). clear Hix. lks; rewrite ?F3; timeout 20 naive_solver.
  - ix_sets. rewrite (ix_paynode _ Hix). clear Hix. lks; rewrite ?F3; timeout 20 naive_solver.
  - ix_sets. rewrite (ix_payaccnode _ Hix). clear Hix. lks; rewrite ?F1, ?F3; timeout 20 naive_solver.
  - ix_sets. rewrite (ix_payq _ Hix). clear Hix. lks; rewrite ?F1, ?F3; timeout 20 naive_solver lia.
  - apply lookup_insert_Some in H as [[<- <-]|[? H]]; [simpl; split; [left; split; [reflexivity|lia]|exact Hdep]|eapply (st_kind _ Hix); eauto].
  - destruct (st_alloc_sub _ Hix _ _ _ H) as (sb & Hsb & R). exists sb. split; [|exact R].
    rewrite lookup_insert_ne; [exact Hsb|]. intros <-. rewrite F1 in Hsb. discriminate.
  - apply lookup_insert_Some in H as [[<- <-]|[Hne H]].
    + unfold hourly in H0. simpl in H0. destruct (h =? 0) eqn:E0; [lia|discriminate].
    + eapply (st_sub_alloc _ Hix); eauto.
  - apply lookup_insert_Some in H as [[<- <-]|[Hne H]].
    + simpl. split; [lia|]. eexists _, _, _, _. rewrite lookup_insert. split; [reflexivity|]. simpl. repeat split; lia || reflexivity.
    + destruct (st_pay_sub _ Hix _ _ H) as (Hh' & sb & g0 & h0 & d0 & Hsb & R). split; [exact Hh'|]. exists sb, g0, h0, d0. split; [|exact R].
      rewrite lookup_insert_ne; [exact Hsb|]. congruence.
  - apply lookup_insert_Some in H as [[<- <-]|[Hne H]].
    + rewrite lookup_insert. eauto.
    + rewrite lookup_insert_ne by congruence. eapply (st_sub_pay _ Hix); eauto.
Qed.

Lemma idx_create_plan s acc pid dn s' id :
  kinv_sub s -> idx_sub s -> create_sub_for_plan s acc pid dn = Ok (s', id) -> idx_sub s'.
Proof.
  intros Hk Hix H. destruct (create_plan_spec _ _ _ _ _ _ H) as (p & Hp & -> & E).
  cbv zeta in E. destruct E as (E1 & E2 & E3 & E4 & E5 & E6 & E7 & E8 & E9 & E10 & E11).
  pose proof (fresh_sub _ Hk (sub_count s + 1) ltac:(lia)) as F1.
  pose proof (fun a => fresh_alloc _ Hk (sub_count s + 1) a ltac:(lia)) as F2.
  pose proof (fresh_payout _ Hk (sub_count s + 1) ltac:(lia)) as F3.
  clear H Hk.
  split; rewrite ?E1, ?E2, ?E3, ?E4, ?E5, ?E6, ?E7, ?E8, ?E9, ?E10, ?E11; clear E1 E2 E3 E4 E5 E6 E7 E8 E9 E10 E11; intros.
  - ix_sets. rewrite (ix_subq _ Hix). clear Hix. lks; rewrite ?F1; timeout 20 naive_solver.
  - rewrite (ix_subnode _ Hix). clear Hix. lks; rewrite ?F1; timeout 20 naive_solver.
  - ix_sets. rewrite (ix_subplan _ Hix). clear Hix. lks; rewrite ?F1; timeout 20 naive_solver.
  - ix_sets. rewrite (ix_subacc _ Hix). clear Hix. lks; rewrite ?F1, ?F2; unfold is_Some; timeout 20 naive_solver.
  - apply (ix_payacc _ Hix).
  - apply (ix_paynode _ Hix).
  - rewrite (ix_payaccnode _ Hix). clear Hix. lks; rewrite ?F1, ?F3; timeout 20 naive_solver.
  - rewrite (ix_payq _ Hix). clear Hix. lks; rewrite ?F1, ?F3; timeout 20 naive_solver.
  - apply lookup_insert_Some in H as [[<- <-]|[? H]]; [exact I|eapply (st_kind _ Hix); eauto].
  - apply lookup_insert_Some in H as [[E <-]|[Hne H]].
    + injection E as <- <-. eexists. rewrite lookup_insert. split; [reflexivity|]. split; [reflexivity|discriminate].
    + destruct (st_alloc_sub _ Hix _ _ _ H) as (sb & Hsb & R). exists sb. split; [|exact R].
      rewrite lookup_insert_ne; [exact Hsb|]. intros <-. rewrite F1 in Hsb. discriminate.
  - apply lookup_insert_Some in H as [[<- <-]|[Hne H]].
    + simpl. rewrite lookup_insert. eauto.
    + destruct (st_sub_alloc _ Hix _ _ H H0) as [al Hal]. exists al. rewrite lookup_insert_ne; [exact Hal|]. congruence.
  - destruct (st_pay_sub _ Hix _ _ H) as (Hh & sb & g0 & h0 & d0 & Hsb & R). split; [exact Hh|]. exists sb, g0, h0, d0. split; [|exact R].
    rewrite lookup_insert_ne; [exact Hsb|]. intros <-. rewrite F1 in Hsb. discriminate.
  - apply lookup_insert_Some in H as [[<- <-]|[Hne H]]; [discriminate|]. eapply (st_sub_pay _ Hix); eauto.
Qed.

Lemma idx_h_node_subscribe s from nd g h dn s' :
  kinv_sub s -> idx_sub s -> validate_basic (MNodeSubscribe from nd g h dn) = true ->
  h_node_subscribe s from nd g h dn = Ok s' -> idx_sub s'.
Proof.
  intros Hk Hix Hv H. apply h_node_subscribe_effect in H as (s1 & id & _ & _ & Hc & ->). apply idx_sub_emit.
  simpl in Hv. repeat (apply andb_prop in Hv as [Hv ?]).
  assert (Hcase : (g = 0 /\ 0 < h) \/ (0 < g /\ h = 0)).
  { destruct (g =? 0) eqn:Eg, (h =? 0) eqn:Eh; simpl in *; try discriminate; lia. }
  destruct Hcase as [[-> Hh]|[Hg ->]]; [eapply idx_create_node_hr|eapply idx_create_node_gb]; eauto.
Qed.

Lemma idx_h_plan_subscribe s from pid dn s' :
  kinv_sub s -> idx_sub s -> h_plan_subscribe s from pid dn = Ok s' -> idx_sub s'.
Proof.
  intros Hk Hix H. apply h_plan_subscribe_effect in H as (s1 & id & Hc & ->). apply idx_sub_emit. eapply idx_create_plan; eauto.
Qed.

Lemma no_payout s id sb : idx_sub s -> subs s !! id = Some sb -> hourly sb = false -> payouts s !! id = None.
Proof.
  intros Hix Hsb Hh. destruct (payouts s !! id) as [po|] eqn:Ep; [|reflexivity].
  destruct (st_pay_sub _ Hix _ _ Ep) as (_ & sb0 & g0 & h0 & d0 & Hs0 & Hk0 & Hh0 & _).
  rewrite Hsb in Hs0. injection Hs0 as <-. unfold hourly in Hh. rewrite Hk0 in Hh. apply negb_false_iff, Z.eqb_eq in Hh. contradiction.
Qed.

(** * demotion: active -> inactive-pending (MsgCancel and the end-blocker) *)

Lemma idx_demote s s2 sb m s' :
  kinv_sub s -> idx_sub s -> subs s !! sb_id sb = Some sb -> sb_status sb = SActive ->
  subs s2 = subs s -> allocs s2 = allocs s -> payouts s2 = payouts s ->
  sub_q s2 = sub_q s ∖ {[ (sb_inactive_at sb, sb_id sb) ]} -> sub_acc s2 = sub_acc s ->
  sub_node s2 = sub_node s -> sub_plan s2 = sub_plan s -> pay_q s2 = pay_q s -> pay_acc s2 = pay_acc s ->
  pay_node s2 = pay_node s -> pay_acc_node s2 = pay_acc_node s ->
  (forall x, m <> Ok x) ->
  detach_payout (sub_make_pending s2 sb) sb m = Ok s' -> idx_sub s'.
Proof.
  intros Hk Hix Hsb Hact E1 E2 E3 E4 E5 E6 E7 E8 E9 E10 E11 Hm H.
  pose proof (st_kind _ Hix _ _ Hsb) as Hkind.
  (* a payout exists exactly for an hourly subscription: either there is none and nothing is detached,
     or the subscription's payout leaves the lease index and the payout queue *)
  assert (Hcase : (payouts s !! sb_id sb = None /\ s' = sub_make_pending s2 sb) \/
                  (exists po, payouts s !! sb_id sb = Some po /\
                     s' = sub_make_pending s2 sb <| pay_acc_node ::= fun x => x ∖ {[ (po_addr po, po_node po, po_id po) ]} |>
                            <| pay_q ::= fun x => x ∖ {[ (po_next_at po, po_id po) ]} |>
                            <| payouts ::= fun m => <[po_id po := po <| po_next_at := tzero |>]> m |>)).
  { apply detach_payout_effect in H. unfold payout_of in H.
    change (payouts (sub_make_pending s2 sb)) with (payouts s2) in H. rewrite E3 in H.
    pose proof (no_payout _ _ _ Hix Hsb) as Hno. unfold hourly in Hno.
    destruct (sb_kind sb) as [nd g h dep|pid dn]; [destruct (h =? 0)|];
      [left; split; [apply Hno; reflexivity|exact H]| |left; split; [apply Hno; reflexivity|exact H]].
    destruct (payouts s !! sb_id sb) as [po|]; [right; exists po; split; [reflexivity|exact H]|exfalso; eapply Hm; eauto]. }
  clear H Hm. unfold sub_make_pending in Hcase.
  (* in both cases [Hpo] says what the payout store holds for the subscription; the clauses about the
     subscription's own indices, its kind and its allocations do not see the difference *)
  destruct Hcase as [[Hpo ->]|(po & Hpo & ->)]; [|destruct (k_po _ Hk _ _ Hpo) as [Eid _]; rewrite Eid];
    (split; simpl; rewrite ?E1, ?E2, ?E3, ?E4, ?E5, ?E6, ?E7, ?E8, ?E9, ?E10, ?E11; intros;
     [ ix_sets; rewrite (ix_subq _ Hix); clear Hix; lks; rewrite ?Hsb; timeout 30 naive_solver
     | rewrite (ix_subnode _ Hix); clear Hix; lks; rewrite ?Hsb; timeout 30 naive_solver
     | rewrite (ix_subplan _ Hix); clear Hix; lks; rewrite ?Hsb; timeout 30 naive_solver
     | rewrite (ix_subacc _ Hix); clear Hix; lks; rewrite ?Hsb; timeout 30 naive_solver
     | rewrite (ix_payacc _ Hix); clear Hix; lks; rewrite ?Hpo; timeout 30 naive_solver
     | rewrite (ix_paynode _ Hix); clear Hix; lks; rewrite ?Hpo; timeout 30 naive_solver
     | ix_sets; rewrite (ix_payaccnode _ Hix); clear Hix; lks; rewrite ?Hpo, ?Hsb; timeout 30 naive_solver
     | ix_sets; rewrite (ix_payq _ Hix); clear Hix; lks; rewrite ?Hpo, ?Hsb; timeout 30 naive_solver
     | apply lookup_insert_Some in H as [[<- <-]|[? H]]; [exact Hkind|eapply (st_kind _ Hix); eauto]
     | match goal with Hal : allocs s !! (?i, _) = Some _ |- _ =>
         destruct (st_alloc_sub _ Hix _ _ _ Hal) as (sb0 & Hsb0 & R); destruct (decide (i = sb_id sb)) as [->|Hne] end;
       [ rewrite Hsb in Hsb0; injection Hsb0 as <-; eexists; rewrite lookup_insert; split; [reflexivity|exact R]
       | exists sb0; rewrite lookup_insert_ne by congruence; split; [exact Hsb0|exact R] ]
     | apply lookup_insert_Some in H as [[<- <-]|[? H]]; [simpl|]; eapply (st_sub_alloc _ Hix); eauto
     | | ]).
  -
    destruct (st_pay_sub _ Hix _ _ H) as (Hh' & sb0 & g0 & h0 & d0 & Hsb0 & R). split; [exact Hh'|].
    destruct (decide (id = sb_id sb)) as [->|Hne].
    + rewrite Hsb in Hsb0. injection Hsb0 as <-. eexists _, g0, h0, d0. rewrite lookup_insert. split; [reflexivity|]. exact R.
    + exists sb0, g0, h0, d0. rewrite lookup_insert_ne by congruence. split; [exact Hsb0|exact R].
  - apply lookup_insert_Some in H as [[<- <-]|[? H]]; eapply (st_sub_pay _ Hix); eauto.
  - (* the detached payout keeps its node, owner and hours *)
    match goal with H : <[_ := _]> _ !! _ = Some ?p |- _ => rename p into pnew end.
    assert (Hold : exists pold, payouts s !! id = Some pold /\ po_node pnew = po_node pold /\ po_addr pnew = po_addr pold /\ po_hours pnew = po_hours pold).
    { apply lookup_insert_Some in H as [[<- <-]|[? H]]; eexists; split; eauto. }
    destruct Hold as (pold & Hpo0 & N1 & N2 & N3). rewrite N1, N2, N3.
    destruct (st_pay_sub _ Hix _ _ Hpo0) as (Hh' & sb0 & g0 & h0 & d0 & Hsb0 & R). split; [exact Hh'|].
    destruct (decide (id = sb_id sb)) as [->|Hne].
    + rewrite Hsb in Hsb0. injection Hsb0 as <-. eexists _, g0, h0, d0. rewrite lookup_insert. split; [reflexivity|]. exact R.
    + exists sb0, g0, h0, d0. rewrite lookup_insert_ne by congruence. split; [exact Hsb0|exact R].
  - assert (Hold : exists sbo, subs s !! id = Some sbo /\ hourly sbo = true).
    { apply lookup_insert_Some in H as [[<- <-]|[? H]]; eauto. }
    destruct Hold as (sbo & Hs0 & Hh0). destruct (st_sub_pay _ Hix _ _ Hs0 Hh0) as [pold Hpo0].
    destruct (decide (id = sb_id sb)) as [->|Hne]; [rewrite lookup_insert; eauto|rewrite lookup_insert_ne by congruence; eauto].
Qed.

Lemma idx_h_sub_cancel s from id s' : kinv s -> idx_sub s -> h_sub_cancel s from id = Ok s' -> idx_sub s'.
Proof.
  intros Hi Hix H. apply h_sub_cancel_effect in H as (sb & s2 & Hsb & Hact & _ & Hp & H).
  destruct (k_sub _ (ki_sub _ Hi) _ _ Hsb) as (Eid & _ & _). subst id. apply sub_pending_hook_keeps in Hp.
  eapply (idx_demote s s2 sb Err); [apply Hi|exact Hix|exact Hsb|exact Hact|..|discriminate|exact H]; keeps_solve.
Qed.

