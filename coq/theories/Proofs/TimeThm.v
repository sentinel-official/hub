(* FormatTimeBytes is an order isomorphism on the years 1..9999:
   the 29-byte text of an instant compares (bytewise) like the instant. *)
From Hub Require Import Base.Prelude Base.Bytes Base.Time Proofs.BytesThm Proofs.Calendar.
From Coq Require Import ZifyN ZifyNat ZifyBool.

(* ---- the domain: years 1..9999 ---- *)
Definition MIN_DAY : Z := -719162.
Definition MAX_DAY : Z := 2932896.

Lemma civil_min : civil_from_days MIN_DAY = (1, 1, 1).
Proof. vm_compute. reflexivity. Qed.
Lemma civil_max : civil_from_days MAX_DAY = (9999, 12, 31).
Proof. vm_compute. reflexivity. Qed.

Lemma civil_year_range days : MIN_DAY <= days <= MAX_DAY ->
  let '(y, m, d) := civil_from_days days in 1 <= y <= 9999.
Proof.
  intros H.
  assert (Hlo : code (civil_from_days MIN_DAY) <= code (civil_from_days days)).
  { destruct (Z.eq_dec MIN_DAY days) as [->|Hne]; [lia|]. apply Z.lt_le_incl, civil_mono_lt. lia. }
  assert (Hhi : code (civil_from_days days) <= code (civil_from_days MAX_DAY)).
  { destruct (Z.eq_dec days MAX_DAY) as [->|Hne]; [lia|]. apply Z.lt_le_incl, civil_mono_lt. lia. }
  rewrite civil_min in Hlo. rewrite civil_max in Hhi.
  assert (Hr := civil_range days).
  destruct (civil_from_days days) as [[y m] d]. cbn [code] in *. lia.
Qed.

Lemma time_ok_days t : time_ok t = true -> MIN_DAY <= t / NS_PER_S / S_PER_DAY <= MAX_DAY.
Proof.
  unfold time_ok, MIN_TIME, MAX_TIME, NS_PER_S, S_PER_DAY, MIN_DAY, MAX_DAY. intros H.
  apply andb_true_iff in H as [H1 H2]. apply Z.leb_le in H1, H2.
  split.
  - apply Z.div_le_lower_bound; [lia|]. apply Z.div_le_lower_bound; lia.
  - apply Z.lt_succ_r. apply Z.div_lt_upper_bound; [lia|].
    assert (t / 1000000000 < 253402300800); [|lia].
    apply Z.div_lt_upper_bound; lia.
Qed.

(* ---- the text ---- *)
Lemma dec_length k v : length (dec k v) = k.
Proof. apply digits_length. Qed.

Lemma fmt_time_length t : length (fmt_time t) = 29%nat.
Proof.
  unfold fmt_time. destruct (civil_from_days _) as [[y m] d].
  rewrite !app_length, !dec_length. reflexivity.
Qed.

Lemma dec_cmp_app k a b r1 r2 :
  0 <= a < 10 ^ Z.of_nat k -> 0 <= b < 10 ^ Z.of_nat k ->
  bytes_cmp (dec k a ++ r1) (dec k b ++ r2) = lex (Z.compare a b) (bytes_cmp r1 r2).
Proof.
  intros Ha Hb. unfold dec.
  assert (Hp : (10 ^ N.of_nat k)%N = Z.to_N (10 ^ Z.of_nat k)).
  { rewrite Z2N.inj_pow by lia. f_equal. lia. }
  rewrite digits_cmp_app; [|lia| |]; try (rewrite Hp; lia).
  rewrite Z2N.inj_compare by lia. reflexivity.
Qed.

Lemma cmp_divmod (B a b : Z) : 0 < B ->
  Z.compare a b = lex (Z.compare (a / B) (b / B)) (Z.compare (a mod B) (b mod B)).
Proof.
  intros HB.
  assert (Ha := Z.div_mod a B ltac:(lia)). assert (Hb := Z.div_mod b B ltac:(lia)).
  assert (Ha' := Z.mod_pos_bound a B HB). assert (Hb' := Z.mod_pos_bound b B HB).
  destruct (Z.compare_spec (a / B) (b / B)) as [He|Hlt|Hgt]; cbn [lex].
  - destruct (Z.compare_spec (a mod B) (b mod B)) as [He2|Hlt2|Hgt2].
    + apply Z.compare_eq_iff. lia.
    + apply Z.compare_lt_iff. lia.
    + apply Z.compare_gt_iff. lia.
  - apply Z.compare_lt_iff. nia.
  - apply Z.compare_gt_iff. nia.
Qed.

(* with months and days in range, [code] orders (year, month, day) lexicographically *)
Lemma code_lex y1 m1 d1 y2 m2 d2 :
  1 <= m1 <= 12 -> 1 <= d1 <= 31 -> 1 <= m2 <= 12 -> 1 <= d2 <= 31 ->
  Z.compare (code (y1, m1, d1)) (code (y2, m2, d2)) =
  lex (Z.compare y1 y2) (lex (Z.compare m1 m2) (Z.compare d1 d2)).
Proof.
  intros Hm1 Hd1 Hm2 Hd2. cbn [code].
  destruct (Z.compare_spec y1 y2) as [->|H|H]; cbn [lex].
  - destruct (Z.compare_spec m1 m2) as [->|H|H]; cbn [lex].
    + destruct (Z.compare_spec d1 d2) as [->|H|H];
        [apply Z.compare_refl|apply Z.compare_lt_iff; lia|apply Z.compare_gt_iff; lia].
    + apply Z.compare_lt_iff; lia.
    + apply Z.compare_gt_iff; lia.
  - apply Z.compare_lt_iff; lia.
  - apply Z.compare_gt_iff; lia.
Qed.

Lemma mod_3600_60 o : (o mod 3600) mod 60 = o mod 60.
Proof.
  assert (H := Z.div_mod o 3600 ltac:(discriminate)).
  rewrite H at 2.
  replace (3600 * (o / 3600) + o mod 3600) with (o mod 3600 + (60 * (o / 3600)) * 60) by lia.
  rewrite Z.mod_add by discriminate. reflexivity.
Qed.

Lemma div_range a b n : 0 < b -> 0 <= a < b * n -> 0 <= a / b < n.
Proof. intros Hb [Hlo Hhi]. split; [apply Z.div_pos|apply Z.div_lt_upper_bound]; assumption. Qed.

Lemma hms_range o : 0 <= o < S_PER_DAY ->
  0 <= o / 3600 < 100 /\ 0 <= o mod 3600 / 60 < 100 /\ 0 <= o mod 60 < 100.
Proof.
  unfold S_PER_DAY. intros Ho.
  assert (Hm := Z.mod_pos_bound o 3600 eq_refl). assert (Hs := Z.mod_pos_bound o 60 eq_refl).
  split; [|split]; [apply div_range|apply div_range|]; lia.
Qed.

Lemma date_range days : MIN_DAY <= days <= MAX_DAY ->
  let '(y, m, d) := civil_from_days days in 0 <= y < 10000 /\ 0 <= m < 100 /\ 0 <= d < 100.
Proof.
  intros H. assert (Hy := civil_year_range days H). assert (Hr := civil_range days).
  destruct (civil_from_days days) as [[y m] d]. lia.
Qed.

(* the text, followed by anything, compares like the instant, then the rest: the instant is
   split into its fields by [cmp_divmod] and [civil_code_cmp], the text by [dec_cmp_app] *)
Theorem fmt_time_cmp_app t1 t2 r1 r2 : time_ok t1 = true -> time_ok t2 = true ->
  bytes_cmp (fmt_time t1 ++ r1) (fmt_time t2 ++ r2) = lex (Z.compare t1 t2) (bytes_cmp r1 r2).
Proof.
  intros H1 H2.
  assert (Hd1 := date_range _ (time_ok_days t1 H1)). assert (Hd2 := date_range _ (time_ok_days t2 H2)).
  clear H1 H2.
  rewrite (cmp_divmod NS_PER_S t1 t2) by reflexivity.
  rewrite (cmp_divmod S_PER_DAY (t1 / NS_PER_S) (t2 / NS_PER_S)) by reflexivity.
  rewrite <- (civil_code_cmp (t1 / NS_PER_S / S_PER_DAY) (t2 / NS_PER_S / S_PER_DAY)).
  unfold fmt_time.
  assert (Hn1 := Z.mod_pos_bound t1 NS_PER_S eq_refl). assert (Hn2 := Z.mod_pos_bound t2 NS_PER_S eq_refl).
  set (n1 := t1 mod NS_PER_S) in *. set (n2 := t2 mod NS_PER_S) in *.
  set (s1 := t1 / NS_PER_S) in *. set (s2 := t2 / NS_PER_S) in *.
  destruct (hms_range _ (Z.mod_pos_bound s1 S_PER_DAY eq_refl)) as (Hh1 & Hm1 & Hs1).
  destruct (hms_range _ (Z.mod_pos_bound s2 S_PER_DAY eq_refl)) as (Hh2 & Hm2 & Hs2).
  set (o1 := s1 mod S_PER_DAY) in *. set (o2 := s2 mod S_PER_DAY) in *.
  assert (Hr1 := civil_range (s1 / S_PER_DAY)). assert (Hr2 := civil_range (s2 / S_PER_DAY)).
  destruct (civil_from_days (s1 / S_PER_DAY)) as [[y1 m1] d1], Hd1 as (Hy1 & Hmo1 & Hda1).
  destruct (civil_from_days (s2 / S_PER_DAY)) as [[y2 m2] d2], Hd2 as (Hy2 & Hmo2 & Hda2).
  rewrite code_lex by tauto.
  rewrite (cmp_divmod 3600 o1 o2) by reflexivity.
  rewrite (cmp_divmod 60 (o1 mod 3600) (o2 mod 3600)) by reflexivity.
  rewrite !mod_3600_60, !lex_assoc, <- !app_assoc.
  (* one field at a time: its digits by [dec_cmp_app], then the separator after it, equal on both sides *)
  repeat (rewrite dec_cmp_app by assumption; try rewrite (bytes_cmp_app_same [_])).
  reflexivity.
Qed.

Corollary fmt_time_cmp t1 t2 : time_ok t1 = true -> time_ok t2 = true ->
  bytes_cmp (fmt_time t1) (fmt_time t2) = Z.compare t1 t2.
Proof.
  intros H1 H2.
  rewrite <- (app_nil_r (fmt_time t1)), <- (app_nil_r (fmt_time t2)).
  rewrite fmt_time_cmp_app by assumption. destruct (Z.compare t1 t2); reflexivity.
Qed.

Corollary fmt_time_inj t1 t2 : time_ok t1 = true -> time_ok t2 = true ->
  fmt_time t1 = fmt_time t2 -> t1 = t2.
Proof.
  intros H1 H2 He. apply Z.compare_eq_iff. rewrite <- fmt_time_cmp by assumption.
  apply bytes_cmp_eq, He.
Qed.
