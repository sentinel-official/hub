(* C08, converse for the purchases: a well-formed request that meets every admission rule and can be paid
   for IS accepted.  "Can be paid for" = the buyer's balance covers the quoted price x quantity; the
   arithmetic side conditions are the ones under which the checked 256-/315-bit operations of
   cosmossdk.io/math succeed (amounts below the supply bound 2^250 of DESIGN section 5.1). *)
From Hub Require Import Base.Prelude Base.Arith Model.Types Model.Keeper Model.Handlers Model.Hooks Model.Step.
From Hub Require Import Proofs.Tactics Proofs.Frames Proofs.Money Proofs.KeysInv Proofs.ArithThm Proofs.Quota Proofs.Pricing Proofs.InvDefs
  Proofs.Ledger1 Proofs.Admission Proofs.RangeDefs Proofs.Total.

Lemma dep_add_ok s a d amt : 0 < amt <= bal s a d -> exists s', dep_add s a d amt = Ok s'.
Proof.
  intros H. unfold dep_add. destruct (bank_send_total s a (c_deposit (cfg s)) d amt ltac:(lia)) as [s1 ->]. simpl. eauto.
Qed.

Lemma z_dep_add_ok s a d amt : 0 <= amt <= bal s a d -> exists s', z_dep_add s a (d, amt) = Ok s'.
Proof.
  intros H. unfold z_dep_add. simpl. destruct (Z.eqb_spec amt 0); [eauto|]. apply dep_add_ok. lia.
Qed.

Lemma afb_gigabytes p g : 0 <= p -> 0 <= g -> p * g < BIG -> amount_for_bytes p (GB * g) = Ok (p * g).
Proof.
  intros Hp Hg Hlim. pose proof GB_pos. destruct BIG_facts as (B0 & B1 & B2 & B3 & B4 & B5 & B6).
  rewrite afb_total; [| lia | nia | nia]. f_equal. unfold afb.
  replace (p * (GB * g)) with (GB * (p * g)) by lia. apply cdiv_exact. exact H.
Qed.

Theorem node_subscribe_gb_complete s from nd g dn n price :
  get_node s (ta_bytes nd) = Some n -> nd_status n = SActive ->
  0 < g -> valid_sub_gb s g = true -> nd_gb_prices n !! dn = Some price ->
  0 <= price -> price * g <= bal s (ta_bytes from) dn -> price * g < BIG -> GB * g < MAXINT ->
  exists s', h_node_subscribe s from nd g 0 dn = Ok s'.
Proof.
  intros Hn Hact Hg Hvg Hp Hp0 Hbal Hbig Hgb. pose proof GB_pos.
  unfold h_node_subscribe. rewrite Hvg, orb_true_r. simpl.
  unfold create_sub_for_node. rewrite Hn. rewrite (bool_decide_eq_true_2 _ Hact). simpl.
  destruct (Z.eqb_spec g 0) as [E|_]; [lia|]. simpl. rewrite Hp.
  rewrite (int_mul_total GB g) by (try nia; lia). simpl.
  rewrite (afb_gigabytes price g) by lia. simpl.
  rewrite (new_coin_total dn (price * g)) by nia. simpl.
  destruct (z_dep_add_ok s (ta_bytes from) dn (price * g) ltac:(nia)) as [s1 ->]. simpl. eauto.
Qed.

Theorem node_subscribe_hr_complete s from nd h dn n price :
  get_node s (ta_bytes nd) = Some n -> nd_status n = SActive ->
  0 < h -> valid_sub_hr s h = true -> nd_hr_prices n !! dn = Some price ->
  0 <= price -> price * h <= bal s (ta_bytes from) dn -> price * h < MAXINT ->
  exists s', h_node_subscribe s from nd 0 h dn = Ok s'.
Proof.
  intros Hn Hact Hh Hvh Hp Hp0 Hbal Hbig.
  unfold h_node_subscribe. simpl. rewrite Hvh, orb_true_r. simpl.
  unfold create_sub_for_node. rewrite Hn. rewrite (bool_decide_eq_true_2 _ Hact). simpl.
  destruct (Z.eqb_spec h 0) as [E|_]; [lia|]. simpl. rewrite Hp.
  rewrite (int_mul_total price h) by (try nia; lia). simpl.
  rewrite (new_coin_total dn (price * h)) by nia. simpl.
  destruct (z_dep_add_ok s (ta_bytes from) dn (price * h) ltac:(nia)) as [s1 ->]. simpl.
  unfold int_quo. destruct (Z.eqb_spec h 0) as [E|_]; [lia|]. simpl.
  rewrite new_coin_total by (apply quot_nonneg; nia). simpl. eauto.
Qed.

Theorem plan_subscribe_complete s from pid dn p price :
  get_plan s pid = Some p -> pl_status p = SActive -> pl_prices p !! dn = Some price ->
  0 <= p_prov_share (pars s) <= P18 -> 0 <= price < BIG -> price <= bal s (ta_bytes from) dn ->
  ta_bytes from <> c_feecoll (cfg s) -> 0 <= pl_gb p -> GB * pl_gb p < MAXINT ->
  exists s', h_plan_subscribe s from pid dn = Ok s'.
Proof.
  intros Hp Hact Hpr Hshare Hprice Hbal Hnf Hgb0 Hgb. pose proof GB_pos.
  destruct BIG_facts as (B0 & B1 & B2 & _).
  unfold h_plan_subscribe, create_sub_for_plan. rewrite Hp. rewrite (bool_decide_eq_true_2 _ Hact). simpl. rewrite Hpr.
  destruct (proportion_total price (p_prov_share (pars s)) Hprice Hshare) as (r & -> & Hr). simpl.
  (* fee to the fee collector *)
  assert (Hs1 : exists s1, z_send s (ta_bytes from) (c_feecoll (cfg s)) (dn, r) = Ok s1 /\
                           bal s1 (ta_bytes from) dn = bal s (ta_bytes from) dn - r).
  { unfold z_send. simpl. destruct (Z.eqb_spec r 0) as [->|Hr0]; [exists s; split; [reflexivity|lia]|].
    destruct (bank_send_total s (ta_bytes from) (c_feecoll (cfg s)) dn r ltac:(lia)) as [s1 Hs1]. exists s1. split; [exact Hs1|].
    destruct (bank_send_bal _ _ _ _ _ _ Hs1) as [_ Hb]. rewrite Hb.
    rewrite (bool_decide_eq_true_2 (ta_bytes from = ta_bytes from /\ dn = dn)) by auto.
    rewrite (bool_decide_eq_false_2 (c_feecoll (cfg s) = ta_bytes from /\ dn = dn)) by (intros [? _]; congruence).
    unfold delta. lia. }
  destruct Hs1 as (s1 & -> & Hb1). simpl.
  rewrite (coin_sub_total dn price r) by lia. simpl.
  assert (Hs2 : exists s2, z_send s1 (ta_bytes from) (pl_prov p) (dn, price - r) = Ok s2).
  { unfold z_send. simpl. destruct (Z.eqb_spec (price - r) 0); [eauto|]. apply bank_send_total. lia. }
  destruct Hs2 as (s2 & ->). simpl.
  rewrite (int_mul_total GB (pl_gb p)) by (try nia; lia). simpl. eauto.
Qed.

(* registrations: an account that is not registered yet and can pay the registration deposit IS registered *)
Lemma fund_pool_ok s a c : 0 <= c.2 <= bal s a c.1 -> exists s', fund_pool s a c = Ok s'.
Proof.
  intros H. unfold fund_pool. destruct (Z.eqb_spec c.2 0); [eauto|]. apply bank_send_total. exact H.
Qed.

Theorem prov_register_complete s from n i w d :
  get_provider s (ta_bytes from) = None ->
  0 <= (p_prov_deposit (pars s)).2 <= bal s (ta_bytes from) (p_prov_deposit (pars s)).1 ->
  exists s', h_prov_register s from n i w d = Ok s'.
Proof.
  intros Hnone Hbal. unfold h_prov_register, has_provider. rewrite Hnone. simpl.
  destruct (fund_pool_ok s (ta_bytes from) _ Hbal) as [s1 ->]. simpl. eauto.
Qed.

Theorem node_register_complete s from gb hr url :
  valid_gb_prices s (coins_of gb) = true -> valid_hr_prices s (coins_of hr) = true ->
  get_node s (ta_bytes from) = None ->
  0 <= (p_node_deposit (pars s)).2 <= bal s (ta_bytes from) (p_node_deposit (pars s)).1 ->
  exists s', h_node_register s from gb hr url = Ok s'.
Proof.
  intros Hg Hh Hnone Hbal. unfold h_node_register, has_node. rewrite Hg, Hh, Hnone. simpl.
  destruct (fund_pool_ok s (ta_bytes from) _ Hbal) as [s1 ->]. simpl. eauto.
Qed.
