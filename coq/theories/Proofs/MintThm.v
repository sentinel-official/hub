(* custommint.BeginBlock (C15): the scheduled inflation entries that are due are
   applied in timestamp order and removed; the latest due entry wins. *)
From Hub Require Import Base.Prelude Base.Arith Model.Types Model.Keeper Model.Handlers Model.Hooks Model.Step.
From Hub Require Import Proofs.Tactics Proofs.Sorting Proofs.Frames.

(* every entry is stored under the key of its own timestamp (InflationKey(Timestamp)) *)
Definition infl_keys_ok (s : state) : Prop :=
  forall k it, inflations s !! k = Some it -> inf_ts it = k.
(* every entry passed GenesisState.Validate *)
Definition infl_valid (s : state) : Prop :=
  forall k it, inflations s !! k = Some it -> mint_params_valid (inf_max it) (inf_min it) (inf_rate it) = true.

Definition due (l : list inflation) (t : time) : list inflation := filter (fun it => inf_ts it <= t) l.

Definition ts_le (a b : inflation) : Prop := inf_ts a <= inf_ts b.

(* mint fields after applying [it] *)
Definition mint_is (s : state) (it : inflation) : Prop :=
  mint_max s = inf_max it /\ mint_min s = inf_min it /\ mint_rate s = inf_rate it /\ mint_inflation s = inf_min it.
Definition mint_same (s s' : state) : Prop :=
  mint_max s' = mint_max s /\ mint_min s' = mint_min s /\ mint_rate s' = mint_rate s /\ mint_inflation s' = mint_inflation s.

Lemma due_nil_of_sorted it l t :
  StronglySorted ts_le (it :: l) -> t < inf_ts it -> due (it :: l) t = [].
Proof.
  intros Hs Ht. apply StronglySorted_inv in Hs as [_ Hall]. unfold due.
  rewrite filter_cons_False by lia.
  induction l as [|x l IH]; [reflexivity|].
  apply Forall_cons in Hall as [Hx Hall]. unfold ts_le in Hx.
  rewrite filter_cons_False by lia. apply IH. exact Hall.
Qed.

(* what the loop computes, on a list sorted by timestamp *)
Lemma mint_loop_spec l : forall s s',
  StronglySorted ts_le l ->
  mint_loop l s = Ok s' ->
  now s' = now s /\
  inflations s' = foldl (fun m it => delete (inf_ts it) m) (inflations s) (due l (now s)) /\
  match last (due l (now s)) with
  | Some it => mint_is s' it
  | None => mint_same s s'
  end.
Proof.
  induction l as [|it l IH]; intros s s' Hs H; simpl in H.
  - injection H as <-. repeat split; reflexivity.
  - destruct (now s <? inf_ts it) eqn:E.
    + injection H as <-. rewrite (due_nil_of_sorted it l (now s) Hs) by lia. repeat split; reflexivity.
    + apply rbind_ok in H as (u & _ & H).
      apply StronglySorted_inv in Hs as [Hs' Hall].
      apply IH in H as (Hn & Hm & Hl); [|exact Hs'].
      change (now (mint_apply s it)) with (now s) in *.
      unfold due at 1 2. rewrite filter_cons_True by lia. fold (due l (now s)).
      split; [exact Hn|]. split; [exact Hm|].
      destruct (due l (now s)) as [|y ys] eqn:Ed.
      * simpl in *. destruct Hl as (A & B & C & D). unfold mint_is. rewrite A, B, C, D. repeat split; reflexivity.
      * rewrite last_cons. destruct (last (y :: ys)) eqn:El; [exact Hl|].
        apply last_None in El. discriminate.
Qed.

Lemma mint_loop_no_panic l : forall s,
  Forall (fun it => mint_params_valid (inf_max it) (inf_min it) (inf_rate it) = true) l ->
  exists s', mint_loop l s = Ok s'.
Proof.
  induction l as [|it l IH]; intros s Hall; simpl; [eauto|].
  destruct (now s <? inf_ts it); [eauto|].
  apply Forall_cons in Hall as [Hit Hall]. rewrite Hit. simpl. apply IH. exact Hall.
Qed.

(** * the items of the schedule *)

Lemma elem_of_mint_items s it :
  infl_keys_ok s -> (it ∈ mint_items s <-> inflations s !! inf_ts it = Some it).
Proof.
  intros Hk. unfold mint_items. rewrite elem_of_list_fmap. split.
  - intros ([k x] & -> & Hin). apply elem_of_sort_by, elem_of_map_to_list in Hin. simpl.
    rewrite (Hk _ _ Hin). exact Hin.
  - intros H. exists (inf_ts it, it). split; [reflexivity|]. apply elem_of_sort_by, elem_of_map_to_list. exact H.
Qed.

Lemma mint_items_sorted s : infl_keys_ok s -> StronglySorted ts_le (mint_items s).
Proof.
  intros Hk. unfold mint_items.
  set (c := fun x y : Z * inflation => x.1 ?= y.1).
  set (l := sort_by c (map_to_list (inflations s))).
  assert (Hs : StronglySorted (cmp_le c) l) by apply sort_by_sorted, _.
  assert (Hin : forall x, x ∈ l -> inf_ts x.2 = x.1).
  { intros [k x] Hx. apply elem_of_sort_by, elem_of_map_to_list in Hx. simpl. eauto. }
  clearbody l. induction Hs as [|x l Hs IH Hall]; simpl; constructor.
  - apply IH. intros y Hy. apply Hin. right. exact Hy.
  - apply Forall_forall. intros y Hy. apply elem_of_list_fmap in Hy as (z & -> & Hz).
    rewrite Forall_forall in Hall. specialize (Hall z Hz). unfold cmp_le, c in Hall.
    unfold ts_le. pose proof (Hin x ltac:(left)) as Hx. pose proof (Hin z ltac:(right; exact Hz)) as Hz'.
    unfold time in *. assert (x.1 <= z.1) by (apply Z.compare_le_iff; exact Hall). lia.
Qed.

(* the last due entry of a sorted list has the largest timestamp among the due ones *)
Lemma last_due_max l t it :
  StronglySorted ts_le l -> last (due l t) = Some it ->
  it ∈ l /\ inf_ts it <= t /\ forall x, x ∈ l -> inf_ts x <= t -> inf_ts x <= inf_ts it.
Proof.
  induction l as [|y l IH]; intros Hs Hl; [discriminate|].
  apply StronglySorted_inv in Hs as [Hs' Hall]. unfold due in Hl.
  destruct (decide (inf_ts y <= t)) as [Hy|Hy].
  - rewrite filter_cons_True in Hl by exact Hy. fold (due l t) in Hl.
    destruct (due l t) as [|z zs] eqn:Ed.
    + simpl in Hl. injection Hl as <-. split; [left|]. split; [exact Hy|].
      intros x Hx Hxt. apply elem_of_cons in Hx as [->|Hx]; [lia|].
      assert (Hxd : x ∈ due l t) by (apply elem_of_list_filter; auto). rewrite Ed in Hxd. inversion Hxd.
    + rewrite last_cons in Hl. destruct (last (z :: zs)) eqn:El; [|apply last_None in El; discriminate].
      injection Hl as <-. destruct (IH Hs' eq_refl) as (A & B & C).
      split; [right; exact A|]. split; [exact B|].
      intros x Hx Hxt. apply elem_of_cons in Hx as [->|Hx]; [|auto].
      rewrite Forall_forall in Hall. apply (Hall _ A).
  - rewrite filter_cons_False in Hl by exact Hy. fold (due l t) in Hl.
    destruct (IH Hs' Hl) as (A & B & C). split; [right; exact A|]. split; [exact B|].
    intros x Hx Hxt. apply elem_of_cons in Hx as [->|Hx]; [lia|auto].
Qed.

Lemma lookup_foldl_delete (m : gmap time inflation) (l : list inflation) k :
  foldl (fun m it => delete (inf_ts it) m) m l !! k =
  if bool_decide (k ∈ map inf_ts l) then None else m !! k.
Proof.
  revert m. induction l as [|it l IH]; intros m; cbn [foldl map].
  - rewrite bool_decide_eq_false_2 by (intros H; inversion H). reflexivity.
  - rewrite IH. destruct (decide (k = inf_ts it)) as [->|Hne].
    + rewrite lookup_delete. rewrite (bool_decide_eq_true_2 (inf_ts it ∈ inf_ts it :: map inf_ts l)) by left.
      case_bool_decide; reflexivity.
    + rewrite lookup_delete_ne by congruence.
      destruct (decide (k ∈ map inf_ts l)) as [Hin|Hin].
      * rewrite !bool_decide_eq_true_2; [reflexivity|right; exact Hin|exact Hin].
      * rewrite !bool_decide_eq_false_2; [reflexivity| |exact Hin].
        intros H. apply elem_of_cons in H as [?|?]; [congruence|contradiction].
Qed.

Lemma elem_of_due_items s t it : infl_keys_ok s ->
  (it ∈ due (mint_items s) t <-> inf_ts it <= t /\ inflations s !! inf_ts it = Some it).
Proof. intros Hk. unfold due. rewrite elem_of_list_filter, (elem_of_mint_items s it Hk). reflexivity. Qed.

(** * the specification of custommint.BeginBlock *)

Theorem mint_begin_block_spec s s' :
  infl_keys_ok s -> mint_begin_block s = Ok s' ->
  (* entries at or before the block time are removed, later ones are untouched *)
  (forall k, inflations s' !! k = if bool_decide (k <= now s) then None else inflations s !! k) /\
  (* the latest due entry determines the minting parameters and resets the inflation rate to its minimum *)
  (forall it, inflations s !! inf_ts it = Some it -> inf_ts it <= now s ->
     (forall k x, inflations s !! k = Some x -> k <= now s -> k <= inf_ts it) -> mint_is s' it) /\
  (* nothing due: nothing changes *)
  ((forall k x, inflations s !! k = Some x -> now s < k) -> mint_same s s' /\ inflations s' = inflations s) /\
  keeps [GMint] s s'.
Proof.
  intros Hk H. pose proof (mint_begin_block_keeps _ _ H) as Hkeeps.
  unfold mint_begin_block in H. pose proof (mint_items_sorted s Hk) as Hs.
  destruct (mint_loop_spec _ _ _ Hs H) as (Hn & Hm & Hl).
  assert (Hlook : forall k, inflations s' !! k = if bool_decide (k <= now s) then None else inflations s !! k).
  { intros k. rewrite Hm, lookup_foldl_delete. case_bool_decide as Hin.
    - apply elem_of_list_fmap in Hin as (it & -> & Hit). apply (elem_of_due_items s _ it Hk) in Hit as [Hle _].
      rewrite bool_decide_eq_true_2 by exact Hle. reflexivity.
    - case_bool_decide as Hle; [|reflexivity].
      destruct (inflations s !! k) as [it|] eqn:E; [|exact E]. exfalso. apply Hin.
      apply elem_of_list_fmap. exists it. pose proof (Hk _ _ E) as Hts. split; [congruence|].
      apply (elem_of_due_items s _ it Hk). rewrite Hts. split; [exact Hle|exact E]. }
  split; [exact Hlook|]. split; [|split; [|exact Hkeeps]].
  - intros it Hit Hle Hmax.
    assert (Hdue : it ∈ due (mint_items s) (now s)) by (apply (elem_of_due_items s _ it Hk); auto).
    destruct (last (due (mint_items s) (now s))) as [it0|] eqn:El.
    + destruct (last_due_max _ _ _ Hs El) as (A & B & C).
      apply (elem_of_mint_items s it0 Hk) in A.
      assert (Hts : inf_ts it0 = inf_ts it).
      { pose proof (Hmax _ _ A B). pose proof (C it (proj2 (elem_of_mint_items s it Hk) Hit) Hle). lia. }
      rewrite Hts in A. rewrite Hit in A. injection A as ->. exact Hl.
    + apply last_None in El. rewrite El in Hdue. inversion Hdue.
  - intros Hnone.
    assert (Ed : due (mint_items s) (now s) = []).
    { destruct (due (mint_items s) (now s)) as [|y ys] eqn:Ed; [reflexivity|].
      assert (Hy : y ∈ due (mint_items s) (now s)) by (rewrite Ed; left).
      apply (elem_of_due_items s _ y Hk) in Hy as [Hle Hy].
      specialize (Hnone _ _ Hy). lia. }
    rewrite Ed in Hl, Hm. simpl in *. split; [exact Hl|exact Hm].
Qed.

(* it cannot panic when every scheduled entry passed genesis validation *)
Theorem mint_begin_block_total s :
  infl_keys_ok s -> infl_valid s -> exists s', mint_begin_block s = Ok s'.
Proof.
  intros Hk Hv. unfold mint_begin_block. apply mint_loop_no_panic.
  apply Forall_forall. intros it Hit. apply (elem_of_mint_items s it Hk) in Hit. eapply Hv; eauto.
Qed.

(** * one operation: only custommint.BeginBlock touches the schedule, and only by removing due entries *)

Definition infl_ok (s : state) : Prop := infl_keys_ok s /\ infl_valid s.

Lemma infl_ok_sub s s' :
  (forall k it, inflations s' !! k = Some it -> inflations s !! k = Some it) -> infl_ok s -> infl_ok s'.
Proof. intros Hsub [Hk Hv]. split; intros k it H; [eapply Hk|eapply Hv]; eauto. Qed.

Lemma begin_step_inv s t s' : step s (OBegin t) = OOk s' ->
  exists s1, mint_begin_block (clear_events s <| now := t |>) = Ok s1 /\
             inflations s' = inflations s1 /\ mint_same s1 s'.
Proof.
  intros H. unfold step in H. destruct (begin_block _) as [x| |] eqn:Hb; try discriminate. injection H as ->.
  unfold begin_block in Hb. apply rbind_ok in Hb as (s1 & Hm & Hsb).
  apply sub_begin_block_keeps in Hsb.
  exists s1. split; [exact Hm|]. split; [keeps_solve|unfold mint_same; keeps_solve].
Qed.

Theorem schedule_step s o s' :
  infl_ok s -> step s o = OOk s' ->
  infl_ok s' /\
  (* entries are only ever removed, and only those that are due at the new block time *)
  (forall k it, inflations s' !! k = Some it -> inflations s !! k = Some it) /\
  (forall k it, inflations s !! k = Some it -> inflations s' !! k = None -> exists t, o = OBegin t /\ k <= t) /\
  (* minting parameters change only in the begin-of-block step *)
  ((forall t, o <> OBegin t) -> mint_same s s' /\ inflations s' = inflations s).
Proof.
  intros Hok H.
  assert (Hother : (forall t, o <> OBegin t) -> mint_same s s' /\ inflations s' = inflations s).
  { intros Hne. unfold step in H. destruct o as [t|m|cs|]; [exfalso; eapply Hne; reflexivity| | |].
    - unfold run_tx in H. destruct (validate_basic m); [|discriminate].
      destruct (handle _ m) as [x| |] eqn:Hh; try discriminate. injection H as <-.
      apply handle_keeps in Hh. unfold mint_same. keeps_solve.
    - destruct (forallb pchange_valid _); [|discriminate]. injection H as <-.
      apply (fold_left_inv (fun x => mint_same s x /\ inflations x = inflations s)).
      + intros x c Hx. pose proof (apply_pchange_keeps x c). unfold mint_same in *. keeps_solve.
      + unfold mint_same. repeat split; reflexivity.
    - destruct (end_block _) as [x| |] eqn:Hh; try discriminate. injection H as <-.
      apply end_block_keeps in Hh. unfold mint_same. keeps_solve. }
  destruct o as [t|m|cs|].
  2-4: destruct Hother as [Hms Hinf]; [intros t; discriminate|];
       split; [eapply infl_ok_sub; [|exact Hok]; rewrite Hinf; auto|];
       split; [rewrite Hinf; auto|]; split; [rewrite Hinf; intros; congruence|auto].
  destruct (begin_step_inv _ _ _ H) as (s1 & Hm & Hinf1 & _).
  destruct Hok as [Hk Hv].
  assert (Hk0 : infl_keys_ok (clear_events s <| now := t |>)) by (intros k it; apply Hk).
  destruct (mint_begin_block_spec _ _ Hk0 Hm) as (Hlook & _).
  assert (Hsub : forall k it, inflations s' !! k = Some it -> inflations s !! k = Some it).
  { intros k it. rewrite Hinf1, Hlook. case_bool_decide; [discriminate|auto]. }
  split; [eapply infl_ok_sub; [exact Hsub|split; assumption]|].
  split; [exact Hsub|]. split; [|intros Hne; exfalso; eapply Hne; reflexivity].
  intros k it Hs Hn. exists t. split; [reflexivity|]. rewrite Hinf1, Hlook in Hn.
  simpl in Hn. case_bool_decide; [assumption|]. simpl in Hn. congruence.
Qed.

(* the operation [OBegin t] as a whole (custommint.BeginBlock, then the marketplace's begin-blocker, which touches
   neither): what it does to the schedule and the minting parameters *)
Theorem begin_step_mint s t s' :
  infl_ok s -> step s (OBegin t) = OOk s' ->
  (forall k, inflations s' !! k = if bool_decide (k <= t) then None else inflations s !! k) /\
  (forall it, inflations s !! inf_ts it = Some it -> inf_ts it <= t ->
     (forall k x, inflations s !! k = Some x -> k <= t -> k <= inf_ts it) -> mint_is s' it) /\
  ((forall k x, inflations s !! k = Some x -> t < k) -> mint_same s s' /\ inflations s' = inflations s).
Proof.
  intros [Hk Hv] H. destruct (begin_step_inv _ _ _ H) as (s1 & Hm & Hinf1 & Hms).
  assert (Hk0 : infl_keys_ok (clear_events s <| now := t |>)) by (intros k it; apply Hk).
  destruct (mint_begin_block_spec _ _ Hk0 Hm) as (Hlook & Hlat & Hnone & _).
  split; [intros k; rewrite Hinf1; apply Hlook|]. split.
  - intros it A B C. specialize (Hlat it A B C). unfold mint_is, mint_same in *. intuition congruence.
  - intros A. destruct (Hnone A) as [B C]. simpl in C. split; [|rewrite Hinf1; exact C].
    unfold mint_same in *. simpl in *. intuition congruence.
Qed.

(** * over whole histories *)

Theorem schedule_run ops : forall s i s',
  infl_ok s -> run_from s ops i = RunOk s' ->
  infl_ok s' /\ (forall k it, inflations s' !! k = Some it -> inflations s !! k = Some it).
Proof.
  induction ops as [|o ops IH]; simpl; intros s i s' Hok H.
  - injection H as <-. auto.
  - destruct (step s o) as [s1| |] eqn:E; try discriminate.
    + destruct (schedule_step _ _ _ Hok E) as (Hok1 & Hsub & _).
      destruct (IH _ _ _ Hok1 H) as (Hok' & Hsub'). split; [exact Hok'|]. intros k it Hk. auto.
    + apply (IH _ _ _) in H; [exact H|]. destruct Hok as [A B]. split; intros k it Hk; [eapply A|eapply B]; exact Hk.
Qed.

(* the chain never halts in custommint.BeginBlock *)
Theorem mint_never_halts s t :
  infl_ok s -> exists s1, mint_begin_block (clear_events s <| now := t |>) = Ok s1.
Proof. intros [Hk Hv]. apply mint_begin_block_total; intros k it H; [eapply Hk|eapply Hv]; exact H. Qed.

(* genesis: a schedule accepted by GenesisState.Validate (valid entries; duplicates are rejected there) *)
Lemma infl_ok_init g :
  Forall (fun it => mint_params_valid (inf_max it) (inf_min it) (inf_rate it) = true) (g_inflations g) ->
  infl_ok (init g).
Proof.
  intros Hall. unfold init. destruct (g_mint g) as [[[mx mn] rc] inf]. simpl.
  split; intros k it H; simpl in H; apply elem_of_list_to_map_2, elem_of_list_fmap in H as (x & Heq & Hx);
    injection Heq as -> ->; [reflexivity|].
  rewrite Forall_forall in Hall. apply Hall. exact Hx.
Qed.
