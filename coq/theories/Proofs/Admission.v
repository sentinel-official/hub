(* C08: admission rules.  Every accepted market action had its preconditions true in
   the state it executed in; conversely requests meeting all of them are accepted. *)
From Hub Require Import Base.Prelude Base.Arith Model.Types Model.Keeper Model.Handlers Model.Hooks Model.Step.
From Hub Require Import Proofs.Tactics Proofs.Effects Proofs.Frames Proofs.KeysInv Proofs.Sorting Proofs.Listing.

(** * the rules, over public state *)

(* the node is registered and active now *)
Definition node_active_now (s : state) (nd : addr) : Prop := exists n, get_node s nd = Some n /\ nd_status n = SActive.
Definition plan_active_now (s : state) (pid : Z) : Prop := exists p, get_plan s pid = Some p /\ pl_status p = SActive.

(* the provider of the plan currently holds an active hourly subscription (lease) on the node *)
Definition leased_by (s : state) (prov nd : addr) : Prop := exists pid, (prov, nd, pid) ∈ pay_acc_node s.

(* the subscription covers the node: its own node, or a node linked to the plan and leased by the plan's provider *)
Definition covers (s : state) (sb : subscription) (from : taddr) (nd : addr) : Prop :=
  match sb_kind sb with
  | KNode sn _ _ _ => nd = sn /\ from = canon RAcc (sb_addr sb)
  | KPlan pid _ => exists p, get_plan s pid = Some p /\ (pid, nd) ∈ node_plan s /\ leased_by s (pl_prov p) nd
  end.

(* unexhausted quota, or the owner of an hourly subscription *)
Definition has_quota (s : state) (sb : subscription) (id : Z) (acc : addr) : Prop :=
  match sb_kind sb with
  | KNode _ _ h _ => h <> 0 \/ exists al, allocs s !! (id, acc) = Some al /\ al_used al < al_granted al
  | KPlan _ _ => exists al, allocs s !! (id, acc) = Some al /\ al_used al < al_granted al
  end.

(* the latest session of (subscription, address), if any, is not active *)
Definition no_active_session (s : state) (id : Z) (acc : addr) : Prop :=
  match last_opt (ids_for_za (sess_alloc s) id acc) with
  | None => True
  | Some sid => exists x, sessions s !! sid = Some x /\ ss_status x <> SActive
  end.

Definition start_rule (s : state) (from : taddr) (id : Z) (nd : addr) : Prop :=
  exists sb, subs s !! id = Some sb /\ sb_status sb = SActive /\ node_active_now s nd /\
             covers s sb from nd /\ has_quota s sb id (ta_bytes from) /\ no_active_session s id (ta_bytes from).

(** * accepted => the rule held *)


Lemma last_ids_elem {A} (l : list A) x : last_opt l = Some x -> x ∈ l.
Proof.
  unfold last_opt. induction l as [|y l IH]; [discriminate|]. destruct l as [|z l]; [intros [= <-]; left|].
  intros H. right. apply IH. exact H.
Qed.

Theorem start_accepted s from id nd s' :
  kinv_node s -> h_sess_start s from id nd = Ok s' -> start_rule s from id (ta_bytes nd).
Proof.
  intros Hk H. destruct (h_sess_start_effect _ _ _ _ _ H) as (sb & n & latest & Hsb & Hact & Hn & Hna & Hl & Hnl & Hcov & Hq & _).
  destruct (get_node_kinv _ _ _ Hk Hn) as [Ena _].
  exists sb. split; [exact Hsb|]. split; [exact Hact|]. split; [exists n; auto|]. split; [|split].
  - unfold covers. destruct (sb_kind sb) as [sn g h dep|pid dn].
    + destruct Hcov as [<- Ho]. auto.
    + destruct Hcov as (p & po & Hp & Hpo & Hlnk). exists p. split; [exact Hp|]. split; [exact Hlnk|].
      unfold latest_payout_for in Hpo.
      destruct (last_opt (ids_for_aa (pay_acc_node s) (pl_prov p) (ta_bytes nd))) as [pid0|] eqn:El; [|discriminate].
      apply last_ids_elem, elem_of_ids_for_aa in El. exists pid0. exact El.
  - unfold has_quota. destruct (sb_kind sb); [exact Hq|]. destruct Hq as [[]|Hq]; exact Hq.
  - unfold no_active_session. unfold latest_session_for_alloc in Hl.
    destruct (last_opt (ids_for_za (sess_alloc s) id (ta_bytes from))) as [sid|]; [|exact I].
    destruct (sessions s !! sid) as [x|]; [|discriminate]. injection Hl as <-. exists x. split; [reflexivity|]. exact (Hnl _ eq_refl).
Qed.

(* conversely: a request meeting the rule is accepted (the index look-ups it makes find their records:
   premises [Hpay], [Hsess], which are instances of the index invariant of C09) *)
Theorem start_complete s from id nd :
  kinv_node s -> ta_valid RAcc from = true -> start_rule s from id (ta_bytes nd) ->
  (forall a b pid, (a, b, pid) ∈ pay_acc_node s -> is_Some (payouts s !! pid)) ->
  (forall a sid, (id, a, sid) ∈ sess_alloc s -> is_Some (sessions s !! sid)) ->
  exists s', h_sess_start s from id nd = Ok s'.
Proof.
  intros Hk Hv (sb & Hsb & Hact & (n & Hn & Hna) & Hcov & Hq & Hnl) Hpay Hsess.
  destruct (get_node_kinv _ _ _ Hk Hn) as [Ena _].
  unfold h_sess_start. rewrite Hsb. rewrite (bool_decide_eq_true_2 _ Hact). simpl. rewrite Hn.
  rewrite (bool_decide_eq_true_2 _ Hna). simpl.
  assert (Hlatest : exists latest, latest_session_for_alloc s id (ta_bytes from) = Ok latest /\
                     match latest with Some x => negb (bool_decide (ss_status x = SActive)) | None => true end = true).
  { unfold latest_session_for_alloc, no_active_session in *.
    destruct (last_opt (ids_for_za (sess_alloc s) id (ta_bytes from))) as [sid|] eqn:El; [|exists None; auto].
    destruct Hnl as (x & Hx & Hst). rewrite Hx. exists (Some x). split; [reflexivity|].
    apply negb_true_iff, bool_decide_eq_false. exact Hst. }
  destruct Hlatest as (latest & Hl & Hlok).
  unfold covers, has_quota in *. destruct (sb_kind sb) as [sn g h dep|pid dn].
  - destruct Hcov as [<- ->]. rewrite (bool_decide_eq_true_2 (nd_addr n = ta_bytes nd) Ena). simpl.
    unfold ta_eqb. rewrite (bool_decide_eq_true_2 (canon RAcc (sb_addr sb) = canon RAcc (sb_addr sb)) eq_refl). simpl.
    destruct (h =? 0) eqn:Eh.
    + destruct Hq as [Hq|(al & Hal & Hlt)]; [apply Z.eqb_eq in Eh; contradiction|]. simpl in Hal. rewrite Hal.
      assert (E : negb (al_granted al <=? al_used al) = true) by (apply negb_true_iff, Z.leb_gt; exact Hlt). rewrite E. simpl.
      simpl in Hl. rewrite Hl. simpl. rewrite Hlok. simpl. eauto.
    + simpl. simpl in Hl. rewrite Hl. simpl. rewrite Hlok. simpl. eauto.
  - destruct Hcov as (p & Hp & Hlnk & (pid0 & Hlease)). rewrite Hp.
    assert (Hpo : exists po, latest_payout_for s (pl_prov p) (ta_bytes nd) = Ok (Some po)).
    { unfold latest_payout_for. destruct (last_opt (ids_for_aa (pay_acc_node s) (pl_prov p) (ta_bytes nd))) as [pid1|] eqn:El.
      - apply last_ids_elem, elem_of_ids_for_aa in El. destruct (Hpay _ _ _ El) as [po Hpo]. rewrite Hpo. eauto.
      - exfalso. apply elem_of_ids_for_aa in Hlease. unfold last_opt in El. apply last_None in El. rewrite El in Hlease. inversion Hlease. }
    destruct Hpo as (po & Hpo). rewrite Hpo. simpl.
    try (rewrite (bool_decide_eq_true_2 (is_Some (Some po))) by eauto). simpl.
    rewrite (bool_decide_eq_true_2 _ Hlnk). simpl.
    destruct Hq as (al & Hal & Hlt). rewrite Hal.
    assert (E : negb (al_granted al <=? al_used al) = true) by (apply negb_true_iff, Z.leb_gt; exact Hlt). rewrite E. simpl.
    rewrite Hl. simpl. rewrite Hlok. simpl. eauto.
Qed.

(** * subscriptions can only be bought against an active node / plan, within the limits *)

Theorem node_subscribe_accepted s from nd g h dn s' :
  h_node_subscribe s from nd g h dn = Ok s' ->
  node_active_now s (ta_bytes nd) /\
  (g <> 0 -> p_min_sub_gb (pars s) <= g <= p_max_sub_gb (pars s)) /\
  (h <> 0 -> p_min_sub_hr (pars s) <= h <= p_max_sub_hr (pars s)).
Proof.
  intros H. destruct (h_node_subscribe_effect _ _ _ _ _ _ _ H) as (s1 & id & Hg & Hh & Hc & _).
  destruct (create_sub_for_node_effect _ _ _ _ _ _ _ _ Hc) as (n & inact & dep & s0 & Hn & Hact & _).
  split; [exists n; auto|]. unfold valid_sub_gb, valid_sub_hr in *. split; intros Hne.
  - apply orb_true_iff in Hg as [Hg|Hg]; [apply Z.eqb_eq in Hg; contradiction|]. apply andb_true_iff in Hg as [A B]. lia.
  - apply orb_true_iff in Hh as [Hh|Hh]; [apply Z.eqb_eq in Hh; contradiction|]. apply andb_true_iff in Hh as [A B]. lia.
Qed.

Theorem plan_subscribe_accepted s from pid dn s' :
  h_plan_subscribe s from pid dn = Ok s' -> plan_active_now s pid.
Proof.
  intros H. destruct (h_plan_subscribe_effect _ _ _ _ _ H) as (s1 & id & Hc & _).
  destruct (create_sub_for_plan_effect _ _ _ _ _ _ Hc) as (p & price & fee & s0 & s2 & Hp & Hact & _). exists p. auto.
Qed.

(** * registration once; plans need a provider, links need a node *)

Theorem prov_register_accepted s from n i w d s' :
  h_prov_register s from n i w d = Ok s' -> get_provider s (ta_bytes from) = None.
Proof.
  intros H. destruct (h_prov_register_effect _ _ _ _ _ _ _ H) as (s1 & Hn & _).
  apply bool_decide_eq_false in Hn. destruct (get_provider s (ta_bytes from)); [exfalso; apply Hn; eauto|reflexivity].
Qed.

Theorem node_register_accepted s from gb hr url s' :
  h_node_register s from gb hr url = Ok s' -> get_node s (ta_bytes from) = None.
Proof.
  intros H. destruct (h_node_register_effect _ _ _ _ _ _ H) as (s1 & _ & _ & Hn & _).
  apply bool_decide_eq_false in Hn. destruct (get_node s (ta_bytes from)); [exfalso; apply Hn; eauto|reflexivity].
Qed.

Theorem plan_create_accepted s from du g pr s' :
  h_plan_create s from du g pr = Ok s' -> is_Some (get_provider s (ta_bytes from)).
Proof.
  intros H. unfold h_plan_create in H. apply rbind_ok in H as (u & Hp & _). apply ensure_ok, bool_decide_eq_true in Hp. exact Hp.
Qed.

Theorem plan_create_complete s from du g pr :
  is_Some (get_provider s (ta_bytes from)) -> exists s', h_plan_create s from du g pr = Ok s'.
Proof. intros Hp. unfold h_plan_create, has_provider. rewrite (bool_decide_eq_true_2 _ Hp). simpl. eauto. Qed.

Theorem plan_link_accepted s from id nd s' :
  h_plan_link s from id nd = Ok s' -> is_Some (get_plan s id) /\ is_Some (get_node s (ta_bytes nd)).
Proof.
  intros H. unfold h_plan_link in H. destruct (get_plan s id) as [p|]; [|discriminate].
  apply rbind_ok in H as (u & _ & H). apply rbind_ok in H as (u2 & Hn & _). apply ensure_ok, bool_decide_eq_true in Hn. eauto.
Qed.

Theorem plan_link_complete s from id nd p :
  get_plan s id = Some p -> from = canon RProv (pl_prov p) -> is_Some (get_node s (ta_bytes nd)) ->
  exists s', h_plan_link s from id nd = Ok s'.
Proof.
  intros Hp -> Hn. unfold h_plan_link, plan_authorised, ta_eqb, has_node. rewrite Hp.
  rewrite (bool_decide_eq_true_2 (canon RProv (pl_prov p) = canon RProv (pl_prov p)) eq_refl). simpl.
  rewrite (bool_decide_eq_true_2 _ Hn). simpl. eauto.
Qed.

(* registering twice is rejected *)
Theorem prov_register_twice s from n i w d p :
  get_provider s (ta_bytes from) = Some p -> h_prov_register s from n i w d = Err.
Proof. intros Hp. unfold h_prov_register, has_provider. rewrite Hp. rewrite (bool_decide_eq_true_2 (is_Some (Some p))) by eauto. reflexivity. Qed.
(* as stated, only the result [Ok s] with the unchanged state is excluded; [node_register_accepted] excludes every [Ok] *)
Theorem node_register_twice s from gb hr url n :
  get_node s (ta_bytes from) = Some n -> h_node_register s from gb hr url <> Ok s.
Proof.
  intros Hn H. apply node_register_accepted in H. congruence.
Qed.
