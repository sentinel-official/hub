(* C04 (run level, sessions): WHY a session is demoted or removed.  Across one whole operation a
   session goes active -> inactive-pending only by its owner's MsgEnd, by the cancellation of its
   subscription (MsgCancel of the subscription's owner), or in the end-blocker of a block at or after
   its own deadline or at or after its subscription's deadline; it is then pending until exactly
   now + the session delay.  It is removed (and settled) only in the end-blocker of a block at or after
   the end of its pending period, never while it was still active when the operation started. *)
From Hub Require Import Base.Prelude Base.Arith Model.Types Model.Keeper Model.Handlers Model.Hooks Model.Step.
From Hub Require Import Proofs.Tactics Proofs.Effects Proofs.Frames Proofs.KeysInv Proofs.Lifecycle
  Proofs.IndexSess Proofs.InvDefs Proofs.IndexAll Proofs.Link.

(** * transactions *)

Lemma handle_sess s m s' id x :
  kinv s -> idx_sess s -> handle s m = Ok s' -> sessions s !! id = Some x ->
  (exists x', sessions s' !! id = Some x' /\ ss_status x' = ss_status x /\
              (ss_status x <> SActive -> ss_inactive_at x' = ss_inactive_at x)) \/
  (ss_status x = SActive /\ sessions s' !! id = Some (session_pending s x) /\
   ((exists from rating, m = MSessEnd from id rating /\ from = canon RAcc (ss_addr x)) \/
    (exists from sb, m = MSubCancel from (ss_sub x) /\ subs s !! ss_sub x = Some sb /\ ta_bytes from = sb_addr sb))).
Proof.
  intros Hi Hix H Hx. destruct (k_ss _ (ki_sess _ Hi) _ _ Hx) as (Eid & _).
  destruct (touched GSess (msg_groups m)) eqn:Ht.
  2:{ left. exists x. destruct (keeps_sess _ _ _ (handle_frame _ _ _ H) Ht) as (_ & -> & _). auto. }
  destruct m; try discriminate Ht; simpl in H.
  - (* cancel of a subscription: its active sessions become pending *)
    destruct (h_sub_cancel_effect _ _ _ _ H) as (sb0 & s2 & Hsb0 & Hact0 & Hown & Hp & Hd).
    destruct (sub_demote_fields _ _ _ _ Err _ Hp ltac:(intros ?; discriminate) Hd) as (_ & K2 & _).
    destruct (keeps_sess _ _ _ K2 eq_refl) as (_ & D1 & _).
    match type of Hp with sub_pending_hook ?a _ = _ => set (s0 := a) in * end.
    assert (Hk0 : kinv_sess s0) by (eapply kinv_sess_frame; [..|apply (ki_sess _ Hi)]; reflexivity).
    assert (Hix0 : idx_sess s0) by (eapply idx_sess_frame; [..|exact Hix]; reflexivity).
    pose proof (sub_pending_hook_sessions s0 id0 s2 Hk0 Hix0 Hp id) as Hs.
    change (sessions s0) with (sessions s) in Hs. change (now s0) with (now s) in Hs. change (pars s0) with (pars s) in Hs.
    rewrite Hx in Hs. simpl in Hs.
    assert (E : sessions s' !! id = Some (demote_sess id0 (now s + p_sess_delay (pars s)) (now s) x)) by (rewrite D1; exact Hs).
    unfold demote_sess in E. case_bool_decide as Hc.
    + destruct Hc as [<- Hact]. right. split; [exact Hact|]. split; [exact E|]. right. exists from, sb0. auto.
    + left. exists x. auto.
  - (* start of another session *)
    left. exists x. split; [|auto]. destruct (evo_h_sess_start _ _ _ _ _ H) as [_ _ _ Kp].
    apply Kp; [exact Hx|]. destruct (k_ss _ (ki_sess _ Hi) _ _ Hx) as (_ & ? & _). lia.
  - (* usage report: details change, the status does not; only an ACTIVE session's deadline is refreshed *)
    destruct (h_sess_update_effect _ _ _ _ _ _ _ _ H) as (x0 & Hx0 & _ & _ & _ & ->).
    cbn [session_update_state sessions emit set]. left. destruct (decide (id = id0)) as [->|Hne].
    + rewrite Hx in Hx0. injection Hx0 as <-. rewrite lookup_insert. eexists. split; [reflexivity|]. unfold session_reported.
      case_bool_decide as Hact; simpl; split; auto; intros; congruence.
    + exists x. rewrite lookup_insert_ne by congruence. auto.
  - (* end *)
    destruct (h_sess_end_effect _ _ _ _ H) as (x0 & Hx0 & Hact & Hown & ->).
    destruct (k_ss _ (ki_sess _ Hi) _ _ Hx0) as (Eid0 & _).
    unfold session_make_pending. simpl. rewrite Eid0.
    destruct (decide (id = id0)) as [->|Hne].
    + rewrite Hx in Hx0. injection Hx0 as <-. right. split; [exact Hact|]. rewrite lookup_insert. split; [reflexivity|]. left. eauto.
    + left. exists x. rewrite lookup_insert_ne by congruence. auto.
Qed.

(** * the session end-blocker, followed for one session *)

Definition sess_fate (s0 : state) (id : Z) (x : session) (y : state) : Prop :=
  sessions y !! id = Some x \/
  (ss_status x = SActive /\ ss_inactive_at x <= now s0 /\ sessions y !! id = Some (session_pending s0 x)) \/
  (ss_status x <> SActive /\ ss_inactive_at x <= now s0 /\ sessions y !! id = None).

Lemma session_end_block_fate s s' id x :
  end_inv s -> session_end_block s = Ok s' -> sessions s !! id = Some x -> sess_fate s id x s'.
Proof.
  intros Hinv H Hx0.
  destruct (session_end_block_loop
              (fun rest y => ((exists t, (t, id) ∈ rest) -> sessions y !! id = Some x) /\ sess_fate s id x y)
              s s' Hinv H) as (_ & _ & _ & _ & G); [| |exact G].
  - split; [intros _; exact Hx0|left; exact Hx0].
  - intros id1 rest y y' z Hy N1 N2 Hz Hle Hnone _ M3 [Hpend Hfate].
    destruct (decide (id1 = id)) as [->|Hne].
    + assert (Hcur : sessions y !! id = Some x) by (apply Hpend; eexists; left).
      rewrite Hz in Hcur. injection Hcur as ->.
      split; [intros [t' Hin']; destruct (Hnone _ Hin')|].
      unfold sess_fate. rewrite M3. case_bool_decide as Hact.
      * right. left. split; [exact Hact|]. split; [exact Hle|]. rewrite lookup_insert. unfold session_pending. rewrite N1, N2. reflexivity.
      * right. right. split; [exact Hact|]. split; [exact Hle|]. apply lookup_delete.
    + assert (Hsame : sessions y' !! id = sessions y !! id).
      { rewrite M3. case_bool_decide; [rewrite lookup_insert_ne by congruence|rewrite lookup_delete_ne by congruence]; reflexivity. }
      split.
      * intros [t' Hin']. rewrite Hsame. apply Hpend. exists t'. right. exact Hin'.
      * unfold sess_fate in *. rewrite Hsame. exact Hfate.
Qed.

(** * the subscription end-blocker, followed for one session and its subscription *)

(* session [sid] (stored as [y], of subscription [k] stored as [sbk], when the loop started) is either
   untouched or was demoted together with its subscription *)
Definition sess_via_sub (s0 : state) (sid : Z) (y : session) (sbk : subscription) (z : state) : Prop :=
  sessions z !! sid = Some y \/
  (ss_status y = SActive /\ sb_status sbk = SActive /\ sb_inactive_at sbk <= now s0 /\ sessions z !! sid = Some (session_pending s0 y)).

Lemma sub_end_block_sess_fate s s' sid y sbk :
  end_inv s -> sess_fresh s -> sub_end_block s = Ok s' -> sessions s !! sid = Some y -> subs s !! ss_sub y = Some sbk ->
  sess_via_sub s sid y sbk s'.
Proof.
  intros Hinv Hfr H Hy0 Hsb0. set (k := ss_sub y) in *.
  destruct (sub_end_block_loop
              (fun rest x => ((exists t, (t, k) ∈ rest) -> subs x !! k = Some sbk) /\ sess_via_sub s sid y sbk x)
              s s' Hinv Hfr H) as (_ & _ & _ & _ & _ & G); [| |exact G].
  - split; [intros _; exact Hsb0|left; exact Hy0].
  - intros id1 rest x x' sb1 Hx N1 N2 Hsb1 Hle Hnone _ M3 M4 [Hpend Hfate].
    destruct (decide (id1 = k)) as [->|Hne].
    + (* the session's own subscription is processed *)
      assert (Hcur : subs x !! k = Some sbk) by (apply Hpend; eexists; left).
      rewrite Hsb1 in Hcur. injection Hcur as ->.
      split; [intros [t' Hin']; destruct (Hnone _ Hin')|].
      unfold sess_via_sub in *. rewrite M4. case_bool_decide as Hact; [|exact Hfate].
      destruct Hfate as [F|(F1 & F2 & F3 & F4)].
      * rewrite F. simpl. unfold demote_sess. case_bool_decide as Hc.
        -- right. destruct Hc as [_ Hya]. split; [exact Hya|]. split; [exact Hact|]. split; [exact Hle|].
           unfold session_pending. rewrite N1, N2. reflexivity.
        -- left. reflexivity.
      * right. split; [exact F1|]. split; [exact F2|]. split; [exact F3|]. rewrite F4. simpl. unfold demote_sess.
        rewrite bool_decide_eq_false_2; [reflexivity|]. simpl. intros [_ ?]. discriminate.
    + (* another subscription: this session is not one of its sessions *)
      assert (Hsame : subs x' !! k = subs x !! k).
      { rewrite M3. case_bool_decide; [rewrite lookup_insert_ne by congruence|rewrite lookup_delete_ne by congruence]; reflexivity. }
      split.
      * intros [t' Hin']. rewrite Hsame. apply Hpend. exists t'. right. exact Hin'.
      * unfold sess_via_sub in *. rewrite M4. case_bool_decide as Hact; [|exact Hfate].
        destruct Hfate as [F|(F1 & F2 & F3 & F4)].
        -- left. rewrite F. simpl. unfold demote_sess. rewrite bool_decide_eq_false_2; [reflexivity|]. intros [? _]. apply Hne. symmetry. assumption.
        -- right. split; [exact F1|]. split; [exact F2|]. split; [exact F3|]. rewrite F4. simpl. unfold demote_sess.
           rewrite bool_decide_eq_false_2; [reflexivity|]. simpl. intros [_ ?]. discriminate.
Qed.

(* a session that is gone stays gone through the subscription end-blocker *)
Lemma sub_end_block_sess_none s s' sid :
  kinv s -> sub_end_block s = Ok s' -> sessions s !! sid = None -> sessions s' !! sid = None.
Proof.
  intros Hi H Hn. unfold sub_end_block in H.
  assert (G : kinv s' /\ sess_evo s s' /\ sub_evo s s').
  { eapply sess_evo_rfold; [exact Hi| |exact H].
    intros a0 e0 b0 Ha Hs. split; [eapply kinv_sub_expire_one; eauto|].
    split; [eapply evo_sub_expire_one_sess; eauto|eapply evo_sub_expire_one; [apply Ha|exact Hs]]. }
  destruct G as (_ & [_ E] & _). destruct (sessions s' !! sid) as [y|] eqn:Hy; [|reflexivity].
  destruct (E _ _ Hy) as (y0 & Hy0 & _). congruence.
Qed.

(** * the whole end-blocker *)

Definition sess_end_fate (s : state) (id : Z) (x : session) (s' : state) : Prop :=
  sessions s' !! id = Some x \/
  (ss_status x = SActive /\ sessions s' !! id = Some (session_pending s x) /\
   (ss_inactive_at x <= now s \/
    exists sb, subs s !! ss_sub x = Some sb /\ sb_status sb = SActive /\ sb_inactive_at sb <= now s)) \/
  (ss_status x <> SActive /\ ss_inactive_at x <= now s /\ sessions s' !! id = None).

Lemma end_block_sess_fate s s' id x :
  life_inv s -> end_block s = Ok s' -> sessions s !! id = Some x -> sess_end_fate s id x s'.
Proof.
  intros Hl H Hx. apply end_block_effect in H as (s1 & s2 & H1 & H2 & H3).
  pose proof (lf_link _ Hl) as [Lk].
  pose proof (node_end_block_keeps _ _ H1) as K1. pose proof (end_inv_node_end_block _ _ (life_end_inv _ Hl) H1) as Hinv1.
  destruct (session_end_block_fresh _ _ Hinv1 H2) as (Hinv2 & Sf2 & N2 & P2).
  pose proof (keeps_now _ _ _ K1 eq_refl) as En1. destruct (keeps_par _ _ _ K1 eq_refl) as (Ep1 & _).
  assert (Hx1 : sessions s1 !! id = Some x) by (rewrite (proj1 (proj2 (keeps_sess _ _ _ K1 eq_refl))); exact Hx).
  assert (Esub : subs s2 = subs s) by (rewrite (session_end_block_subs _ _ H2); exact (proj1 (proj2 (keeps_sub _ _ _ K1 eq_refl)))).
  destruct (Lk _ _ Hx) as (sbk & Hsbk & _).
  destruct (session_end_block_fate s1 s2 id x Hinv1 H2 Hx1) as [F|[(F1 & F2 & F3)|(F1 & F2 & F3)]].
  - (* untouched by the session end-blocker: follow it through the subscription end-blocker *)
    assert (Hsbk2 : subs s2 !! ss_sub x = Some sbk) by (rewrite Esub; exact Hsbk).
    destruct (sub_end_block_sess_fate s2 s' id x sbk Hinv2 Sf2 H3 F Hsbk2) as [G|(G1 & G2 & G3 & G4)].
    + left. exact G.
    + right. left. split; [exact G1|]. split.
      * rewrite G4. unfold session_pending. rewrite N2, P2, En1, Ep1. reflexivity.
      * right. exists sbk. rewrite N2, En1 in G3. auto.
  - (* demoted at its own deadline *)
    assert (Hsbk2 : subs s2 !! ss_sub (session_pending s1 x) = Some sbk) by (simpl; rewrite Esub; exact Hsbk).
    destruct (sub_end_block_sess_fate s2 s' id (session_pending s1 x) sbk Hinv2 Sf2 H3 F3 Hsbk2) as [G|(G1 & _)]; [|simpl in G1; discriminate].
    right. left. split; [exact F1|]. split.
    + rewrite G. unfold session_pending. rewrite En1, Ep1. reflexivity.
    + left. rewrite En1 in F2. exact F2.
  - (* removed (settled) at the end of its pending period *)
    right. right. split; [exact F1|]. split; [rewrite En1 in F2; exact F2|].
    eapply sub_end_block_sess_none; [apply Hinv2|exact H3|exact F3].
Qed.

(** * one whole operation *)

Lemma step_sess_fate s o s' id x :
  life_inv s -> step s o = OOk s' -> sessions s !! id = Some x ->
  (exists x', sessions s' !! id = Some x' /\ ss_status x' = ss_status x /\
              (ss_status x <> SActive -> ss_inactive_at x' = ss_inactive_at x)) \/
  (ss_status x = SActive /\ sessions s' !! id = Some (session_pending s x) /\
   ((exists from rating, o = OTx (MSessEnd from id rating) /\ from = canon RAcc (ss_addr x)) \/
    (exists from sb, o = OTx (MSubCancel from (ss_sub x)) /\ subs s !! ss_sub x = Some sb /\ ta_bytes from = sb_addr sb) \/
    (o = OEnd /\ (ss_inactive_at x <= now s \/
                  exists sb, subs s !! ss_sub x = Some sb /\ sb_status sb = SActive /\ sb_inactive_at sb <= now s)))) \/
  (o = OEnd /\ ss_status x <> SActive /\ ss_inactive_at x <= now s /\ sessions s' !! id = None).
Proof.
  intros Hl Hstep Hx. pose proof (ai_k _ (lf_idx _ Hl)) as Hi. pose proof (ai_sess _ (lf_idx _ Hl)) as Hix.
  apply step_inv in Hstep. destruct o.
  - left. rename Hstep into H. rename s' into y.
    destruct (keeps_sess _ _ _ (begin_block_keeps _ _ H) eq_refl) as (_ & E & _). simpl in E. rewrite E. eauto.
  - destruct Hstep as [_ H]. rename s' into y.
    destruct (handle_sess (clear_events s) m y id x (kinv_clear _ Hi) ltac:(eapply idx_sess_frame; [..|exact Hix]; reflexivity) H Hx)
      as [F|(Hact & Hx1 & Hc)]; [left; exact F|].
    right. left. split; [exact Hact|]. split; [exact Hx1|].
    destruct Hc as [(from & r & -> & Hf)|(from & sb & -> & Hsb & Hf)]; [left; eauto|right; left; eauto].
  - left. destruct Hstep as [_ ->].
    destruct (keeps_sess _ _ _ (fold_pchange_keeps cs (clear_events s)) eq_refl) as (_ & G1 & _). rewrite G1. eauto.
  - destruct Hstep as (y & H & ->).
    destruct (end_block_sess_fate (clear_events s) y id x (life_clear _ Hl) H Hx) as [F|[(F1 & F2 & F3)|(F1 & F2 & F3)]]; simpl in *.
    + left. eauto.
    + right. left. auto 7.
    + right. right. auto.
Qed.

Theorem sess_demotion_cause s o s' id x x' :
  life_inv s -> step s o = OOk s' -> sessions s !! id = Some x -> sessions s' !! id = Some x' ->
  ss_status x = SActive -> ss_status x' = SPending ->
  ss_inactive_at x' = now s + p_sess_delay (pars s) /\
  ((exists from rating, o = OTx (MSessEnd from id rating) /\ from = canon RAcc (ss_addr x)) \/
   (exists from sb, o = OTx (MSubCancel from (ss_sub x)) /\ subs s !! ss_sub x = Some sb /\ ta_bytes from = sb_addr sb) \/
   (o = OEnd /\ (ss_inactive_at x <= now s \/
                 exists sb, subs s !! ss_sub x = Some sb /\ sb_status sb = SActive /\ sb_inactive_at sb <= now s))).
Proof.
  intros Hl Hstep Hx Hx' Hact Hpend.
  destruct (step_sess_fate _ _ _ _ _ Hl Hstep Hx) as [(x1 & Hx1 & Hst & _)|[(_ & Hx1 & Hc)|(_ & _ & _ & Hx1)]]; rewrite Hx1 in Hx'.
  - injection Hx' as <-. congruence.
  - injection Hx' as <-. split; [reflexivity|exact Hc].
  - discriminate.
Qed.

Theorem sess_removal_cause s o s' id x :
  life_inv s -> step s o = OOk s' -> sessions s !! id = Some x -> sessions s' !! id = None ->
  o = OEnd /\ ss_status x = SPending /\ ss_inactive_at x <= now s.
Proof.
  intros Hl Hstep Hx Hnone.
  destruct (step_sess_fate _ _ _ _ _ Hl Hstep Hx) as [(x1 & Hx1 & _)|[(_ & Hx1 & _)|(-> & F1 & F2 & _)]]; try congruence.
  split; [reflexivity|]. split; [|exact F2].
  destruct (k_ss _ (ki_sess _ (ai_k _ (lf_idx _ Hl))) _ _ Hx) as (_ & _ & [Hs|Hs]); [contradiction|exact Hs].
Qed.

(* a pending session's deadline never moves: it is removed exactly when the pending period it was given ends *)
Theorem pending_session_deadline_fixed s o s' id x x' :
  life_inv s -> step s o = OOk s' -> sessions s !! id = Some x -> sessions s' !! id = Some x' ->
  ss_status x = SPending -> ss_status x' = SPending /\ ss_inactive_at x' = ss_inactive_at x.
Proof.
  intros Hl Hstep Hx Hx' Hp.
  destruct (step_sess_fate _ _ _ _ _ Hl Hstep Hx) as [(x1 & Hx1 & Hst & Hiat)|[(Hact & _)|(_ & _ & _ & Hx1)]]; try congruence.
  rewrite Hx1 in Hx'. injection Hx' as <-. split; [congruence|]. apply Hiat. congruence.
Qed.
