(* C10 — State transitions are deterministic: same history, same state and events.
   Proofs are in Proofs/Determinism.v, except the short one of the sorting specification.

   What is decided HERE is the model side: the specification every run of the
   implementation is compared with (correspondence on every projected observable after
   every operation) is a mathematical function of the history, and every ordered
   iteration inside it is canonical — it depends only on the set of stored entries.
   What a Gallina function cannot exhibit (Go map iteration order, goroutine scheduling,
   wall-clock reads) is decided by translation validation: the same histories executed in
   several fresh processes under different runtime settings must produce byte-identical
   stores and event lists (tools/ext_c10.py), plus a typed source scan.  C10 is therefore
   claimed at level translation_validation, labelled partial in DESIGN section 10. *)
From Hub Require Import Base.Prelude Base.Arith Model.Types Model.Keeper Model.Handlers Model.Hooks Model.Step.
From Hub Require Import Proofs.Sorting Proofs.Determinism.

Theorem C10_step_is_a_function : forall s o r1 r2, step s o = r1 -> step s o = r2 -> r1 = r2.
Proof. exact step_deterministic. Qed.

Theorem C10_run_is_a_function : forall s ops r1 r2, run s ops = r1 -> run s ops = r2 -> r1 = r2.
Proof. exact run_deterministic. Qed.

(* every prefix of a history determines the intermediate state the rest continues from *)
Theorem C10_prefixes_agree : forall ops1 ops2 s i,
  run_from s (ops1 ++ ops2) i =
  match run_from s ops1 i with
  | RunOk s1 => run_from s1 ops2 (i + length ops1)
  | h => h
  end.
Proof. exact run_prefix_deterministic. Qed.

(* ordered iteration is canonical: however the entries of a deadline queue are enumerated,
   the scan processes them in one and the same order (timestamp, then identifier / address) *)
Theorem C10_queue_scan_canonical_ids : forall (q : gset (time * Z)) (t : time) (l : list (time * Z)),
  l ≡ₚ elements q -> filter (fun e => e.1 <= t) (sort_by cmp_tz l) = due_z q t.
Proof. exact due_z_canonical. Qed.

Theorem C10_queue_scan_canonical_addrs : forall (q : gset (time * addr)) (t : time) (l : list (time * addr)),
  l ≡ₚ elements q -> filter (fun e => e.1 <= t) (sort_by cmp_ta l) = due_a q t.
Proof. exact due_a_canonical. Qed.

Theorem C10_sorting_canonical : forall (l1 l2 : list (addr * Z)), l1 ≡ₚ l2 -> sort_by cmp_az l1 = sort_by cmp_az l2.
Proof. intros l1 l2. apply sort_by_canonical, _. Qed.

Theorem C10_queue_scan_chronological : forall q t, StronglySorted (cmp_le cmp_tz) (due_z q t).
Proof. exact due_z_sorted. Qed.

Example C10_nonvacuous :
  due_z ({[ (30, 2); (10, 7); (10, 3); (99, 1) ]} : gset (time * Z)) 50 = [(10, 3); (10, 7); (30, 2)].
Proof. vm_compute. reflexivity. Qed.

Print Assumptions C10_step_is_a_function.
Print Assumptions C10_run_is_a_function.
Print Assumptions C10_prefixes_agree.
Print Assumptions C10_queue_scan_canonical_ids.
Print Assumptions C10_queue_scan_canonical_addrs.
Print Assumptions C10_sorting_canonical.
Print Assumptions C10_queue_scan_chronological.
