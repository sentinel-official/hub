(* C14 — A swap is minted at most once per Ethereum tx hash, only by the approver.
   The proofs are in Proofs/Supply.v; the key normal form (C14_stored_key_is_lookup_key) rests on
   Proofs/CodecThm.v, the module permissions (C14_only_swap_mints) on Proofs/WiringThm.v. *)
From Hub Require Import Base.Prelude Base.Arith Model.Types Model.Keeper Model.Handlers Model.Hooks Model.Step.
From Hub Require Import Proofs.Tactics Proofs.Frames Proofs.Money Proofs.Supply.
From Hub Require Import Gen.Wiring Proofs.WiringThm.
From Hub Require Import Base.Bytes Gen.KeysGen Model.HashCodec Proofs.CodecThm.

(* For each hash at most one swap is ever executed: once recorded, a request with the
   same hash is rejected, and a recorded swap is never altered or removed. *)
Theorem C14_once_per_hash : forall s from hash receiver amount w,
  swaps s !! hash = Some w -> step s (OTx (MSwap from hash receiver amount)) = ORejected.
Proof. exact swap_once. Qed.

Theorem C14_records_are_permanent : forall s o s' h w,
  step s o = OOk s' -> swaps s !! h = Some w -> swaps s' !! h = Some w.
Proof. exact swaps_monotone. Qed.

(* It is executed only while swaps are enabled and only on a request from the configured
   approver, for a 32-byte hash not seen before; it records the swap, credits the named
   receiver (not a blocked address) with exactly amount/100 rounded down in the swap
   denomination and nobody else, and the supply grows by that amount. *)
Theorem C14_accepted_swap : forall s from hash receiver amount s',
  step s (OTx (MSwap from hash receiver amount)) = OOk s' ->
  let d := p_swap_denom (pars s) in
  let q := Z.quot amount 100 in
  p_swap_enabled (pars s) = true /\
  p_swap_approver (pars s) = from /\
  swaps s !! hash = None /\
  Z.of_nat (length hash) = 32 /\ 100 <= amount /\
  swaps s' = <[hash := {| sw_hash := hash; sw_receiver := receiver; sw_amount := (d, q) |}]> (swaps s) /\
  supply s' = coins_add (supply s) d q /\
  is_blocked s (ta_bytes receiver) = false /\
  (forall x d', x <> c_swap (cfg s) ->
     bal s' x d' = bal s x d' + delta (bool_decide (ta_bytes receiver = x /\ d = d')) q).
Proof. exact swap_step. Qed.

(* Nothing else the hub does changes the supply or the swap records ... *)
Theorem C14_nothing_else : forall s o s',
  (forall m, o = OTx m -> is_swap m = false) -> step s o = OOk s' ->
  supply s' = supply s /\ swaps s' = swaps s.
Proof. exact non_swap_step. Qed.

(* ... so over any history the supply of every denomination grows by exactly the sum of
   the swaps recorded during that history. *)
Theorem C14_supply_is_sum_of_swaps : forall ops s s' d,
  run s ops = RunOk s' ->
  amount_of (supply s') d - amount_of (supply s) d = swap_total s' d - swap_total s d.
Proof. intros ops s s' d H. exact (supply_tracks_swaps_run ops s 0%nat s' d H). Qed.

(* The key a record is stored under is the key it is looked up under, for byte strings of ANY length (the keeper and
   the genesis import do not check the length): both normalise with BytesToHash (left-pad with zeros / keep the last
   32 bytes), the normal form is 32 bytes long and a fixed point, and the key constructor (regenerated from
   x/swap/types/keys.go) is injective -- so two requests are "the same hash" exactly when their normal forms are equal,
   in particular when they differ only in leading zero bytes.  Tie: the real SwapKey(swap.GetTxHash()) and
   SwapKey(BytesToHash(msg.TxHash)) are compared with this model on generated inputs of all lengths (tools/ext_c14.py). *)
Theorem C14_stored_key_is_lookup_key : forall x y : list N,
  (swap_SwapKey (bytes_to_hash x) = swap_SwapKey (bytes_to_hash y) <-> bytes_to_hash x = bytes_to_hash y) /\
  List.length (bytes_to_hash x) = 32%nat /\ bytes_to_hash (bytes_to_hash x) = bytes_to_hash x /\
  (bytes_to_hash (0%N :: x) = bytes_to_hash x \/ (32 <= List.length x)%nat).
Proof.
  intros x y. split; [split; [apply app_inv_head|intros ->; reflexivity]|].
  split; [apply bytes_to_hash_length|]. split; [apply bytes_to_hash_exact, bytes_to_hash_length|].
  destruct (le_lt_dec 32 (List.length x)) as [Hge|Hlt]; [right; exact Hge|left; apply bytes_to_hash_leading_zero, Hlt].
Qed.

Section wiring.
Local Open Scope string_scope.
(* app wiring (regenerated from app/module.go on every run): among the hub's module accounts only swap can mint, none can burn *)
Theorem C14_only_swap_mints :
  perms_of "swaptypes.ModuleName" = Some ["authtypes.Minter"] /\ perms_of "deposittypes.ModuleName" = Some [] /\
  perms_of "customminttypes.ModuleName" = Some [].
Proof. exact (conj swap_can_only_mint (conj deposit_cannot_mint_or_burn custommint_has_no_permission)). Qed.
End wiring.

Print Assumptions C14_once_per_hash.
Print Assumptions C14_records_are_permanent.
Print Assumptions C14_accepted_swap.
Print Assumptions C14_nothing_else.
Print Assumptions C14_supply_is_sum_of_swaps.
Print Assumptions C14_only_swap_mints.
Print Assumptions C14_stored_key_is_lookup_key.
