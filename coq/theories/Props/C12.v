(* C12 — Exported genesis is valid and re-imports to an equivalent, live state.
   FALSE of the code as it stands (known findings F5, F8): the full statement is kept as a Definition,
   refuted by concrete reachable witnesses; what does hold is stated module by module.
   Statements, each read off the closed form of the round trip in Proofs/GenesisRT.v; the model is Model/Genesis.v.

   [roundtrip s = Ok (v, s')]: v = per-module verdicts of the real Validate functions on ExportGenesis(s),
   s' = a fresh chain (same bank/supply/SDK-mint/time) after the real InitGenesis of that document.
   [genesis_defined s] = the store premises under which neither export nor import panics
   (status partitions consistent, plan links point at existing nodes and plans).
   The [*_index_ok], [*_store_ok], [*_records_ok], [plan_count_ok] premises are invariants of the keepers,
   named in Proofs/GenesisRT.v; that they hold in every reachable state is proved in Proofs/GenesisReach.v (stores, indices)
   and Proofs/RecValid.v (records). *)
From Hub Require Import Base.Prelude Base.Arith Model.Types Model.Keeper Model.Handlers Model.Hooks Model.Step Model.Genesis.
From Hub Require Import Proofs.Tactics Proofs.Sorting Proofs.KeysInv Proofs.Link Proofs.GenesisRT Proofs.GenesisReach Proofs.RecValid Proofs.RecValidClosed Proofs.GenesisIdentity Proofs.Witness.

(* the property as stated (Definition only: it is false) *)
Definition C12_statement : Prop := C12_full_statement.

Theorem C12_refuted : ~ C12_full_statement.
Proof. exact full_statement_refuted. Qed.

(* F5: a reachable state with one subscription and its allocation; the export validates, the re-imported
   chain has no subscription, no allocation, and its subscription counter is back at 0 *)
Theorem C12_refuted_subscriptions :
  exists ops s v s', run (init w_genesis) ops = RunOk s /\ roundtrip s = Ok (v, s') /\ verdict_ok v = true /\
    is_Some (subs s !! 1) /\ is_Some (allocs s !! (1, [8%N])) /\ sub_count s = 1 /\
    subs s' = ∅ /\ allocs s' = ∅ /\ sub_count s' = 0.
Proof. exact refuted_subscriptions. Qed.

(* F8: session 1 was started, ended and removed; the counter is 1; after the round trip it is 0 again *)
Theorem C12_refuted_session_counter :
  exists ops s v s', run (init w_genesis) ops = RunOk s /\ roundtrip s = Ok (v, s') /\ verdict_ok v = true /\
    sessions s = ∅ /\ sess_count s = 1 /\ sess_count s' = 0.
Proof. exact refuted_session_counter. Qed.

(* consequence of F5: re-imported while session 1 is pending, the chain halts in the EndBlock that settles it *)
Theorem C12_refuted_continuation_halts :
  exists ops s v s', run (init w_genesis) ops = RunOk s /\ roundtrip s = Ok (v, s') /\ verdict_ok v = true /\
    (exists a, run s [OBegin 3000; OEnd] = RunOk a) /\ (exists b i, run s' [OBegin 3000; OEnd] = RunHalt b i).
Proof. exact refuted_continuation_halts. Qed.

(* for EVERY state: nothing of the subscription module but its parameter survives *)
Theorem C12_subscriptions_always_lost : forall s v s',
  genesis_defined s -> roundtrip s = Ok (v, s') ->
  subs s' = ∅ /\ allocs s' = ∅ /\ payouts s' = ∅ /\ sub_count s' = 0 /\
  sub_q s' = ∅ /\ sub_acc s' = ∅ /\ sub_node s' = ∅ /\ sub_plan s' = ∅ /\
  pay_q s' = ∅ /\ pay_acc s' = ∅ /\ pay_node s' = ∅ /\ pay_acc_node s' = ∅.
Proof. intros s v s' Hd Hr. destruct (rt_inv s v s' Hd Hr) as [_ ->]. apply rt_subscription_lost. Qed.

(* export and import never panic on a consistent store *)
Theorem C12_roundtrip_defined : forall s, genesis_defined s -> exists v s', roundtrip s = Ok (v, s').
Proof. exact roundtrip_defined. Qed.

(* FOR EVERY REACHABLE STATE (any genesis, any history): the export / import round trip is defined and gives back, module by
   module, exactly the records and the rebuilt indices of providers, nodes (with the lease queue), plans (with the provider
   index, the node links and the counter), deposits, sessions (with all five indices), swaps, the inflation schedule and the
   SDK mint parameters, and all parameter sets -- the premises of the per-module theorems below are invariants of every
   history (Proofs/GenesisReach.v).  What is lost is exactly the subscription module's state (known finding F5). *)
Theorem C12_reachable_roundtrip : forall g ops s, run (init g) ops = RunOk s ->
  exists v s', roundtrip s = Ok (v, s') /\
    deposits s' = deposits s /\
    prov_act s' = prov_act s /\ prov_inact s' = prov_inact s /\
    node_act s' = node_act s /\ node_inact s' = node_inact s /\ node_q s' = node_q s /\
    plan_act s' = plan_act s /\ plan_inact s' = plan_inact s /\ plan_prov s' = plan_prov s /\
    node_plan s' = node_plan s /\ plan_count s' = plan_count s /\
    sessions s' = sessions s /\ sess_q s' = sess_q s /\ sess_acc s' = sess_acc s /\ sess_node s' = sess_node s /\
    sess_sub s' = sess_sub s /\ sess_alloc s' = sess_alloc s /\
    swaps s' = swaps s /\ inflations s' = inflations s /\
    mint_max s' = mint_max s /\ mint_min s' = mint_min s /\ mint_rate s' = mint_rate s /\ mint_inflation s' = mint_inflation s /\
    pars s' = pars s /\
    subs s' = ∅ /\ allocs s' = ∅ /\ payouts s' = ∅ /\ sub_count s' = 0.
Proof. exact reachable_roundtrip. Qed.

Theorem C12_reachable_genesis_defined : forall g ops s, run (init g) ops = RunOk s -> genesis_defined s.
Proof. exact reachable_genesis_defined. Qed.

(* THE EXPORTED GENESIS IS VALID, for every state reachable inside the configuration domain (valid genesis parameter
   sets -- governance keeps them valid by itself: a proposal is executed only if every change passes its per-key validator,
   and those are what Params.Validate checks --, validated inflation schedule, block times after the zero time): every stored record passes its module's
   Validate -- an inductive invariant over every handler and hook, including the end-of-block price sweep, the removal of
   emptied deposits, and every deadline written as now + delay -- so validate (export s) accepts every section. *)
Theorem C12_reachable_export_valid : forall g ops s,
  wf_genesis_rec g -> wf_hist wf_op_rec (init g) ops -> run (init g) ops = RunOk s ->
  exists v s', roundtrip s = Ok (v, s') /\ verdict_ok v = true.
Proof. exact reachable_export_valid. Qed.

Theorem C12_records_valid_inductive : forall s o s', kinv s -> rec_inv s -> wf_op_rec s o -> step s o = OOk s' -> rec_inv s'.
Proof. exact rec_step. Qed.

(** what holds, module by module: records and rebuilt indices agree, the exported part validates *)

Theorem C12_partial_deposit : forall s v s', genesis_defined s -> roundtrip s = Ok (v, s') ->
  deposits s' = deposits s /\ (dep_records_ok s -> v_deposit v = true).
Proof. intros s v s' Hd Hr. destruct (rt_inv s v s' Hd Hr) as [-> ->]. split; [apply rt_deposit|apply val_deposit]. Qed.

Theorem C12_partial_provider : forall s v s', genesis_defined s -> roundtrip s = Ok (v, s') ->
  prov_act s' = prov_act s /\ prov_inact s' = prov_inact s /\
  (prov_records_ok s -> prov_params_ok (pars s) = true -> v_provider v = true).
Proof.
  intros s v s' Hd Hr. destruct (rt_inv s v s' Hd Hr) as [-> ->]. destruct Hd as (Hp & _). destruct (rt_provider s Hp) as [A B].
  split; [exact A|]. split; [exact B|]. apply val_provider. exact Hp.
Qed.

(* nodes: both status partitions and the lease queue *)
Theorem C12_partial_node : forall s v s', genesis_defined s -> roundtrip s = Ok (v, s') -> node_q_index_ok s ->
  node_act s' = node_act s /\ node_inact s' = node_inact s /\ node_q s' = node_q s /\
  (node_records_ok s -> node_params_ok (pars s) = true -> v_node v = true).
Proof.
  intros s v s' Hd Hr Hq. destruct (rt_inv s v s' Hd Hr) as [-> ->]. destruct Hd as (_ & Hn & _). destruct (rt_node s Hn Hq) as (A & B & C).
  split; [exact A|]. split; [exact B|]. split; [exact C|]. apply val_node. exact Hn.
Qed.

(* plans: both partitions, the by-provider index, the node links, the counter *)
Theorem C12_partial_plan : forall s v s', genesis_defined s -> roundtrip s = Ok (v, s') ->
  plan_prov_index_ok s -> plan_count_ok s ->
  plan_act s' = plan_act s /\ plan_inact s' = plan_inact s /\ plan_prov s' = plan_prov s /\
  node_plan s' = node_plan s /\ plan_count s' = plan_count s /\
  (plan_records_ok s -> v_plan v = true).
Proof.
  intros s v s' Hd Hr Hpp Hc. destruct (rt_inv s v s' Hd Hr) as [-> ->]. destruct Hd as (_ & _ & Hl & Hnp).
  destruct (rt_plan s Hl Hnp Hpp Hc) as (A & B & C & D & E). repeat (split; [assumption|]). apply val_plan. exact Hl.
Qed.

(* sessions: records and all five indices; the counter comes back as exactly the largest live id (F8) *)
Theorem C12_partial_session : forall s v s', genesis_defined s -> roundtrip s = Ok (v, s') ->
  sess_store_ok s -> sess_index_ok s ->
  sessions s' = sessions s /\ sess_q s' = sess_q s /\ sess_acc s' = sess_acc s /\ sess_node s' = sess_node s /\
  sess_sub s' = sess_sub s /\ sess_alloc s' = sess_alloc s /\
  (forall id x, sessions s !! id = Some x -> id <= sess_count s') /\
  (sess_count s' = 0 \/ is_Some (sessions s !! sess_count s')) /\
  (sess_records_ok s -> sess_params_ok (pars s) = true -> v_session v = true).
Proof.
  intros s v s' Hd Hr Hk Hi. destruct (rt_inv s v s' Hd Hr) as [-> ->]. destruct (rt_session s Hk Hi) as (A & B & C & D & E & F & G & H).
  repeat (split; [assumption|]). apply val_session. exact Hk.
Qed.

Theorem C12_partial_swap : forall s v s', genesis_defined s -> roundtrip s = Ok (v, s') -> swap_store_ok s ->
  swaps s' = swaps s /\ (swap_records_ok s -> swap_params_ok (pars s) = true -> v_swap v = true).
Proof. intros s v s' Hd Hr Hk. destruct (rt_inv s v s' Hd Hr) as [-> ->]. split; [apply rt_swap; exact Hk|apply val_swap; exact Hk]. Qed.

(* custommint: the schedule; the SDK mint parameters are carried by the SDK's own genesis *)
Theorem C12_partial_custommint : forall s v s', genesis_defined s -> roundtrip s = Ok (v, s') -> infl_store_ok s ->
  inflations s' = inflations s /\ mint_max s' = mint_max s /\ mint_min s' = mint_min s /\
  mint_rate s' = mint_rate s /\ mint_inflation s' = mint_inflation s /\
  (infl_records_ok s -> v_mint v = true).
Proof.
  intros s v s' Hd Hr Hk. destruct (rt_inv s v s' Hd Hr) as [-> ->]. destruct (rt_mint s Hk) as (A & B & C & D & E).
  repeat (split; [assumption|]). apply val_mint. exact Hk.
Qed.

(* all five parameter sets; the x/params "modified" flags are all set in the first block after import *)
Theorem C12_partial_params : forall s v s', genesis_defined s -> roundtrip s = Ok (v, s') ->
  pars s' = pars s /\ modified s' = all_flags /\ (sub_params_ok (pars s) = true -> v_subscription v = true).
Proof. intros s v s' Hd Hr. destruct (rt_inv s v s' Hd Hr) as [-> ->]. split; [apply rt_params|]. split; [reflexivity|apply val_subscription]. Qed.

(* non-vacuity: the witness state is reachable, its export validates, and the re-imported state carries a node,
   a deposit and a session while the original also carries a subscription *)
Example C12_nonvacuous_roundtrip : wit w_ops_live_session
  (fun s v s' => verdict_ok v && bool_decide (is_Some (node_act s' !! [7%N])) && bool_decide (is_Some (deposits s' !! [8%N])) &&
                 bool_decide (is_Some (sessions s' !! 1)) && bool_decide ((1, [8%N], 1) ∈ sess_alloc s') &&
                 bool_decide (is_Some (subs s !! 1))) = true.
Proof. vm_compute. reflexivity. Qed.

Print Assumptions C12_refuted.
Print Assumptions C12_refuted_subscriptions.
Print Assumptions C12_refuted_session_counter.
Print Assumptions C12_refuted_continuation_halts.
Print Assumptions C12_subscriptions_always_lost.
Print Assumptions C12_roundtrip_defined.
Print Assumptions C12_reachable_roundtrip.
Print Assumptions C12_reachable_genesis_defined.
Print Assumptions C12_reachable_export_valid.
Print Assumptions C12_records_valid_inductive.
Print Assumptions C12_partial_deposit.
Print Assumptions C12_partial_provider.
Print Assumptions C12_partial_node.
Print Assumptions C12_partial_plan.
Print Assumptions C12_partial_session.
Print Assumptions C12_partial_swap.
Print Assumptions C12_partial_custommint.
Print Assumptions C12_partial_params.

(* THE ROUND TRIP IS THE IDENTITY wherever the genesis schema can carry the state: for every reachable state in which no
   subscription has been bought yet (the two counters the schema cannot carry, sub_count and sess_count, are still 0),
   export + re-import returns EXACTLY the original state -- all records, indices, counters, parameters, the SDK side --
   up to the event list (empty after an import) and the transient "parameter modified" marks (all set by InitGenesis,
   so the first end-blocker re-applies all four price bounds).  The re-imported state is equal to the original with the
   event list emptied and all modified marks set; a continuation can differ from the original chain's only through those
   marks.  With the refutation witnesses above this locates the failure of the full
   statement exactly in the subscription module's genesis and the session counter (known findings F5 / F8). *)
Theorem C12_roundtrip_is_identity_before_first_subscription : forall g ops s,
  run (init g) ops = RunOk s -> sub_count s = 0 -> sess_count s = 0 ->
  exists v, roundtrip s = Ok (v, clear_events s <| modified := all_flags |>).
Proof. exact reachable_roundtrip_identity. Qed.

Theorem C12_continuation_identical_before_first_subscription : forall g ops s,
  run (init g) ops = RunOk s -> sub_count s = 0 -> sess_count s = 0 -> forall ops2 i,
  exists v s', roundtrip s = Ok (v, s') /\ run_from s' ops2 i = run_from (clear_events s <| modified := all_flags |>) ops2 i.
Proof. exact reachable_continuation_identical. Qed.

(* non-vacuity: a reachable state with an active node in the lease queue, a provider, an active plan with a linked node,
   a recorded swap and both counters still 0 *)
Definition wi_ops : list op :=
  [ OBegin 1000;
    OTx (MNodeRegister (canon RAcc [7%N]) (Some [(1%N, 5)]) (Some [(1%N, 7)]) "https://n:1" true);
    OTx (MNodeUpdateStatus wt_node SActive);
    OTx (MProvRegister (canon RAcc [9%N]) "prov" "" "" "" true);
    OTx (MPlanCreate wt_prov 1000000 5 (Some [(1%N, 20)]));
    OTx (MPlanUpdateStatus wt_prov 1 SActive);
    OTx (MPlanLink wt_prov 1 wt_node);
    OTx (MSwap (canon RAcc [9%N]) (repeat 7%N 32) wt_acc 12345);
    OEnd ].
Example C12_identity_nonvacuous :
  match run (init wt_genesis) wi_ops with
  | RunOk s => (sub_count s, sess_count s, size (node_act s), size (node_q s), size (prov_inact s), size (plan_act s),
                size (node_plan s), size (swaps s), plan_count s) = (0, 0, 1%nat, 1%nat, 1%nat, 1%nat, 1%nat, 1%nat, 1)
  | _ => False
  end.
Proof. vm_compute. reflexivity. Qed.

(* non-vacuity of the domain premises: the witness genesis and history satisfy them (and the exported genesis of the
   resulting state validates: C12_nonvacuous_roundtrip) *)
Example C12_domain_nonvacuous : wf_genesis_rec w_genesis /\ wf_hist wf_op_rec (init w_genesis) w_ops_session_gone.
Proof.
  split; [split; [vm_compute; reflexivity|split]|].
  - repeat split; vm_compute; reflexivity.
  - intros it Hin. vm_compute in Hin. inversion Hin.
  - vm_compute. repeat split.
Qed.
Print Assumptions C12_roundtrip_is_identity_before_first_subscription.
Print Assumptions C12_continuation_identical_before_first_subscription.
