(* C03 — Block processing never halts: begin/end-of-block hooks cannot panic.
   Statements and closed examples; the proofs are in Proofs/Total.v (each panic site excluded by the invariants),
   Proofs/Range.v (value ranges and recipients), Proofs/TotalClosed.v (induction over histories).
   [hook_inv] = life_inv (all index invariants, parameters, session/subscription link)
              /\ quota_inv /\ ledger_inv /\ money_inv /\ range_inv;
   [wf_op_c03], [wf_genesis_c03] (Proofs/RangeDefs.v) spell out the configuration domain of DESIGN §5. *)
From Hub Require Import Base.Prelude Base.Arith Model.Types Model.Keeper Model.Handlers Model.Hooks Model.Step.
From Hub Require Import Proofs.Tactics Proofs.Frames Proofs.Money Proofs.KeysInv Proofs.Quota Proofs.InvDefs Proofs.Link
  Proofs.Ledger3 Proofs.RangeDefs Proofs.Range Proofs.Total Proofs.TotalClosed Proofs.Witness.
From Hub Require Import Gen.Wiring Proofs.WiringThm Gen.ParamRules Proofs.ParamRulesThm.

(* From every genesis of the configuration domain (valid parameter sets with session delay <=
   subscription delay, validated inflation schedule, module accounts set up as the app does), every
   finite history of blocks with strictly increasing times (any gaps), any transactions in them --
   valid or not, authorised or not, with any numbers stateless validation accepts -- and governance
   changes inside DESIGN §5.3, runs to its end: no begin-of-block or end-of-block step panics.
   [run] returns [RunHalt] exactly when a block hook panics. *)
Theorem C03_chain_never_halts : forall g ops,
  wf_genesis_c03 g -> wf_hist wf_op_c03 (init g) ops -> exists s', run (init g) ops = RunOk s' /\ hook_inv s'.
Proof. exact chain_never_halts. Qed.

(* the same from any state satisfying the invariant (DESIGN §5.2: a consistent imported state) *)
Theorem C03_run_never_halts : forall ops s i,
  hook_inv s -> wf_hist wf_op_c03 s ops -> exists s', run_from s ops i = RunOk s' /\ hook_inv s'.
Proof. exact run_never_halts. Qed.

(* one step: no operation of the domain yields [OHalt] *)
Theorem C03_step_never_halts : forall s o, hook_inv s -> wf_op_c03 s o -> step s o <> OHalt.
Proof. exact step_never_halts. Qed.

(* the two block hooks complete in every state satisfying the invariant, whatever the time gap *)
Theorem C03_begin_block_never_panics : forall s t,
  hook_inv s -> now s < t -> exists s', begin_block (clear_events s <| now := t |>) = Ok s' /\ hook_inv s'.
Proof. exact begin_block_total. Qed.

Theorem C03_end_block_never_panics : forall s,
  hook_inv s -> exists s', end_block (clear_events s) = Ok s' /\ hook_inv s' /\ now s' = now s.
Proof. exact end_block_total. Qed.

(* every single iteration of the three queue loops: a queued entry always resolves to its record,
   every transfer is covered by the escrow, every checked 256/315-bit operation is in range *)
Theorem C03_payout_never_panics : forall s e, hook_inv s -> e ∈ pay_q s -> exists s', payout_step s e = Ok s'.
Proof. exact payout_step_total. Qed.
Theorem C03_session_expiry_never_panics : forall s e, hook_inv s -> e ∈ sess_q s -> exists s', session_expire_one s e = Ok s'.
Proof. exact session_expire_one_total. Qed.
Theorem C03_subscription_expiry_never_panics : forall s e, hook_inv s -> e ∈ sub_q s -> exists s', sub_expire_one s e = Ok s'.
Proof. exact sub_expire_one_total. Qed.

(* the invariant is inductive and holds at genesis *)
Theorem C03_invariant_inductive : forall s o s', hook_inv s -> wf_op_c03 s o -> step s o = OOk s' -> hook_inv s'.
Proof. exact hook_inv_step. Qed.
Theorem C03_invariant_genesis : forall g, wf_genesis_c03 g -> hook_inv (init g).
Proof. exact hook_inv_init. Qed.

(** * the domain boundary (DESIGN §5.3, observation O2): if governance lowers the subscription delay
      below the remaining pending time of a live pending session, the chain DOES halt.  The premise
      [wf_op_life] of the theorem above is therefore necessary, and the checker rejects this history. *)
Definition c03_o2_ops : list op :=
  let acc9 := canon RAcc [9%N] in
  let acc5 := canon RAcc [5%N] in
  let node5 := canon RNode [5%N] in
  [OBegin 1000;
   OTx (MNodeRegister acc5 (Some [(1%N, 700)]) (Some [(1%N, 11)]) "u" true);
   OTx (MNodeUpdateStatus node5 SActive);
   OTx (MNodeSubscribe acc9 node5 2 0 1%N);
   OEnd;
   OBegin 2000;
   OTx (MSessStart acc9 1 node5);
   OTx (MSessEnd acc9 1 0);                      (* session 1 pending until 2000 + 120 *)
   OGov [PCSessDelay 5; PCSubDelay 10];          (* both delays lowered, 5 <= 10 *)
   OEnd;
   OBegin 2001;
   OTx (MSubCancel acc9 1);                      (* subscription 1 pending until 2011 only *)
   OEnd;
   OBegin 2050; OEnd;                            (* subscription 1 removed and refunded; session 1 still pending *)
   OBegin 2200; OEnd].                           (* settlement of session 1: its subscription is gone *)

Theorem C03_domain_boundary_witness :
  (match run (init ledger_ex_genesis) c03_o2_ops with RunHalt _ i => i = 16%nat | RunOk _ => False end) /\
  wf_hist_b (init ledger_ex_genesis) c03_o2_ops = false /\
  wf_hist_b (init ledger_ex_genesis) (take 8 c03_o2_ops) = true.
Proof. vm_compute. repeat split; reflexivity. Qed.

(** * non-vacuity: a history inside the domain in which the hooks do real work *)

#[export] Instance eta_genesis : Settable _ := settable! Build_genesis <g_cfg; g_balances; g_params; g_inflations; g_mint; g_time>.

Definition c03_genesis : genesis :=
  wt_genesis <| g_inflations := [ {| inf_max := 2 * 10 ^ 17; inf_min := 10 ^ 17; inf_rate := 10 ^ 17; inf_ts := 1500 |};
                                   {| inf_max := 3 * 10 ^ 17; inf_min := 10 ^ 17; inf_rate := 10 ^ 17; inf_ts := 1700 |};
                                   {| inf_max := 10 ^ 18; inf_min := 0; inf_rate := 10 ^ 18; inf_ts := 1000 + 2 * HOUR |} ] |>.

Definition c03_ops : list op :=
  wt_ops1 ++ wt_ops2 ++
  [ OBegin (1000 + HOUR);                                        (* two hourly payouts due, two inflation entries already applied *)
    OTx (MSessUpdate wt_node 2 (2 ^ 255) (2 ^ 255 - 1) 1 None true);  (* the largest report stateless validation accepts *)
    OGov [PCMaxGb [(1%N, 4)]; PCSubDelay 300];                   (* bounds tightened below the node's price: sweep *)
    OEnd;
    OBegin (1000 + 3 * HOUR);                                    (* multi-hour stall: payouts, lease, sessions, subscriptions all due *)
    OTx (MSubCancel wt_acc 4);
    OEnd;
    OBegin (1000 + 200 * HOUR); OEnd;
    OBegin (1000 + 2200 * HOUR); OEnd;                           (* 90 days later: the per-gigabyte subscription expires ... *)
    OBegin (1000 + 2201 * HOUR); OEnd ].                         (* ... and is refunded and removed *)

Example C03_nonvacuous :
  wf_genesis_c03 c03_genesis /\
  wf_hist_b (init c03_genesis) c03_ops = true /\
  match run (init c03_genesis) c03_ops with
  | RunOk s => sess_count s = 2 /\ sub_count s = 4 /\ map_to_list (sessions s) = [] /\ map_to_list (subs s) = [] /\ map_to_list (deposits s) = [] /\ map_to_list (inflations s) = []
  | RunHalt _ _ => False
  end.
Proof.
  split; [|vm_compute; repeat split; reflexivity].
  split; [split|split].
  - split; vm_compute; try discriminate. apply elem_of_list_here.
  - intros a c Hin. vm_compute in Hin. vm_compute. intros ->.
    repeat (apply elem_of_cons in Hin as [Hin|Hin]; [discriminate|]). inversion Hin.
  - apply par_ok_b_sound. vm_compute. reflexivity.
  - intros it Hin. vm_compute in Hin.
    repeat (apply elem_of_cons in Hin as [->|Hin]; [vm_compute; reflexivity|]). inversion Hin.
Qed.

Section wiring.
Local Open Scope string_scope.
(* app wiring (regenerated from app/module.go and x/vpn/abci.go on every run): the hooks the theorems above are about
   are composed in the order the application runs them *)
Theorem C03_end_block_order_is_the_apps : vpn_end_block_calls = ["node.EndBlock"; "session.EndBlock"; "subscription.EndBlock"] /\
  forall s, end_block s = (let! s1 := node_end_block s in let! s2 := session_end_block s1 in sub_end_block s2).
Proof. exact (conj vpn_end_block_is_model model_end_block_order). Qed.
Theorem C03_begin_block_order_is_the_apps : vpn_begin_block_calls = ["subscription.BeginBlock"] /\
  runs_before "customminttypes.ModuleName" "minttypes.ModuleName" begin_blockers /\
  forall s, begin_block s = (let! s1 := mint_begin_block s in sub_begin_block s1).
Proof. exact (conj vpn_begin_block_is_model (conj custommint_before_mint model_begin_block_order)). Qed.
End wiring.

(* THE GOVERNANCE GATE.  A proposal is executed only if every one of its changes passes the per-key
   validator of its parameter (x/*/types/params.go, run by Subspace.Update); a proposal with one failing
   change changes nothing.  An executed proposal keeps every single-parameter condition the block hooks
   rely on (delays and the node lease positive, both staking shares within [0, 1]), so the only thing
   the configuration domain has to ASSUME about governance is the one cross-parameter condition the
   validators cannot see (session delay <= subscription delay) -- see [wf_op_life]. *)
Theorem C03_governance_gate : forall s cs s',
  step s (OGov cs) = OOk s' ->
  forallb pchange_valid cs = true /\ s' = fold_left apply_pchange cs (clear_events s).
Proof. exact step_gov_ok. Qed.

Theorem C03_executed_proposal_keeps_parameters_sane : forall cs s,
  par_ok (pars s) -> forallb pchange_valid cs = true ->
  p_sess_delay (pars (fold_left apply_pchange cs s)) <= p_sub_delay (pars (fold_left apply_pchange cs s)) ->
  par_ok (pars (fold_left apply_pchange cs s)).
Proof. exact gov_par_ok. Qed.

(* ... and that gate IS the source's validators: [param_rules] is regenerated on every run from the ParamSetPairs and
   the validate* functions of x/*/types/params.go (Go type and ordered refuse / accept tests of every parameter);
   [rule_valid] evaluates the regenerated rule of the parameter a change writes on the value it carries. *)
Theorem C03_gate_is_the_source_validators : forall c, pchange_valid c = rule_valid c.
Proof. exact pchange_valid_is_the_regenerated_rule. Qed.
Theorem C03_every_parameter_has_a_source_rule : forall c, is_Some (lookup_rule (pchange_key c)).
Proof. exact every_parameter_has_a_rule. Qed.

(* non-vacuity of the gate: a staking share above 1, a zero delay and a negative deposit are each refused
   (the whole proposal, also its valid first change), a valid proposal is executed *)
Example C03_gate_examples :
  let s := init wt_genesis in
  step s (OGov [PCSessProof true; PCNodeShare (P18 + 1)]) = ORejected /\
  step s (OGov [PCSubDelay 0]) = ORejected /\
  step s (OGov [PCProvDeposit (1%N, -1)]) = ORejected /\
  (exists s', step s (OGov [PCNodeShare P18; PCSubDelay 7]) = OOk s' /\ p_node_share (pars s') = P18 /\ p_sub_delay (pars s') = 7).
Proof.
  (* the gate looks at the changes only: the state stays abstract *)
  intros s. clearbody s. split; [reflexivity|]. split; [reflexivity|]. split; [reflexivity|].
  exists (fold_left apply_pchange [PCNodeShare P18; PCSubDelay 7] (clear_events s)). repeat split; reflexivity.
Qed.

(* crossed price bounds (a minimum above the maximum: each per-key validator accepts its half) are inside this theorem's
   domain: the sweep ends with the price at the new minimum and the chain goes on; lowering the minimum again later leaves
   the price above the maximum (only the modified vector is swept), which is why the price statement C11 is made for
   histories that never cross the bounds *)
Example C03_crossed_bounds_do_not_halt :
  match run (init wt_genesis) (wt_ops1 ++ [OBegin 1500; OGov [PCMaxGb [(1%N, 3)]; PCMinGb [(1%N, 9)]]; OEnd;
                                           OBegin 1600; OGov [PCMinGb [(1%N, 1)]]; OEnd]) with
  | RunOk s => map (fun n => coins_list (nd_gb_prices n)) (all_nodes s) = [[(1%N, 9)]] /\
               coins_list (p_max_gb (pars s)) = [(1%N, 3)] /\ coins_list (p_min_gb (pars s)) = [(1%N, 1)]
  | _ => False
  end.
Proof. vm_compute. repeat split. Qed.

Print Assumptions C03_chain_never_halts.
Print Assumptions C03_run_never_halts.
Print Assumptions C03_step_never_halts.
Print Assumptions C03_begin_block_never_panics.
Print Assumptions C03_end_block_never_panics.
Print Assumptions C03_payout_never_panics.
Print Assumptions C03_session_expiry_never_panics.
Print Assumptions C03_subscription_expiry_never_panics.
Print Assumptions C03_invariant_inductive.
Print Assumptions C03_invariant_genesis.
Print Assumptions C03_domain_boundary_witness.
Print Assumptions C03_end_block_order_is_the_apps.
Print Assumptions C03_begin_block_order_is_the_apps.
Print Assumptions C03_governance_gate.
Print Assumptions C03_executed_proposal_keeps_parameters_sane.
Print Assumptions C03_gate_is_the_source_validators.
