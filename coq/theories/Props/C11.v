(* C11 — Node prices and purchase sizes always respect the governance bounds.
   Proofs are in Proofs/Bounds.v; the acceptance checks are read off Proofs/Effects.v and Proofs/Admission.v. *)
From Hub Require Import Base.Prelude Base.Arith Model.Types Model.Keeper Model.Handlers Model.Hooks Model.Step.
From Hub Require Import Proofs.Tactics Proofs.Effects Proofs.Frames Proofs.Money Proofs.KeysInv Proofs.Bounds Proofs.Admission.
From Hub Require Import Gen.Wiring Proofs.WiringThm.

(* The invariant: for each of the four bound vectors, either it was modified in this block
   (flag of the x/params transient store) or every node is within it.  It holds at genesis
   and is preserved by every operation; [wf_op11]: the parameter set is in the domain of
   DESIGN section 5.1 (min <= max for every denomination bounded by both) when a block ends. *)
Theorem C11_invariant_inductive : forall s o s',
  kinv s -> bounds_inv s -> wf_op11 s o -> step s o = OOk s' -> bounds_inv s'.
Proof. intros s o s' Hi Hb Hw H. exact (proj1 (bounds_step s o s' Hi Hb Hw H)). Qed.

Theorem C11_genesis : forall g, bounds_inv (init g).
Proof. exact bounds_inv_init. Qed.

Theorem C11_every_reachable_state : forall ops s s',
  kinv s -> bounds_inv s -> wf_ops11 s ops -> run s ops = RunOk s' -> bounds_inv s'.
Proof. intros ops s s'. exact (bounds_run ops s 0%nat s'). Qed.

(* At every block boundary — right after the end-of-block step, also in the very block in
   which governance changed any subset of the four bound vectors (the change is applied
   before the marketplace end-blocker) — every registered node's per-gigabyte and per-hour
   prices lie within the CURRENT minimum and maximum of every bounded denomination. *)
Theorem C11_prices_within_bounds_at_block_end : forall s s',
  kinv s -> bounds_inv s -> params_consistent (pars s) -> step s OEnd = OOk s' -> all_within s'.
Proof. intros s s' Hi Hb Hw H. exact (proj2 (bounds_step s OEnd s' Hi Hb Hw H) eq_refl). Qed.

(* Registrations and price updates outside the bounds are rejected: an accepted one carries
   prices within the current bounds. *)
Theorem C11_register_checked : forall s from gb hr url s',
  h_node_register s from gb hr url = Ok s' ->
  within_max (coins_of gb) (p_max_gb (pars s)) /\ within_min (coins_of gb) (p_min_gb (pars s)) /\
  within_max (coins_of hr) (p_max_hr (pars s)) /\ within_min (coins_of hr) (p_min_hr (pars s)).
Proof.
  intros s from gb hr url s' H. destruct (h_node_register_effect _ _ _ _ _ _ H) as (s1 & Hg & Hh & _).
  apply bounds_ok_spec in Hg, Hh. tauto.
Qed.

Theorem C11_update_checked : forall s from gb hr url s',
  h_node_update_details s from gb hr url = Ok s' ->
  (forall l, gb = Some l -> within_max (coins_of l) (p_max_gb (pars s)) /\ within_min (coins_of l) (p_min_gb (pars s))) /\
  (forall l, hr = Some l -> within_max (coins_of l) (p_max_hr (pars s)) /\ within_min (coins_of l) (p_min_hr (pars s))).
Proof.
  intros s from gb hr url s' H. unfold h_node_update_details in H.
  apply rbind_ok in H as (u1 & Hg & H). apply ensure_ok in Hg.
  apply rbind_ok in H as (u2 & Hh & H). apply ensure_ok in Hh.
  split; intros l ->; apply bounds_ok_spec; assumption.
Qed.

(* Purchases of gigabytes or hours outside the configured minimum/maximum are rejected. *)
Theorem C11_quantity_checked : forall s from nd g h dn s',
  h_node_subscribe s from nd g h dn = Ok s' ->
  (g <> 0 -> p_min_sub_gb (pars s) <= g <= p_max_sub_gb (pars s)) /\
  (h <> 0 -> p_min_sub_hr (pars s) <= h <= p_max_sub_hr (pars s)).
Proof.
  intros s from nd g h dn s' H. exact (proj2 (node_subscribe_accepted _ _ _ _ _ _ _ H)).
Qed.

(* The premise min <= max is necessary: outside it the sweep cannot satisfy both bounds. *)
Example C11_needs_min_le_max :
  let p := {[ 1%N := 50 ]} : coins in let mx := {[ 1%N := 10 ]} : coins in let mn := {[ 1%N := 20 ]} : coins in
  amount_of (swept true true p mx mn) 1%N = 20 /\ ~ within_max (swept true true p mx mn) mx.
Proof.
  split; [vm_compute; reflexivity|]. intros H. specialize (H 1%N 10 eq_refl). vm_compute in H. apply H. reflexivity.
Qed.

(* non-vacuity: a price stranded above a lowered maximum is clamped by the sweep *)
Example C11_sweep_clamps :
  amount_of (swept true false ({[ 1%N := 50 ]} : coins) ({[ 1%N := 10 ]} : coins) ∅) 1%N = 10.
Proof. vm_compute. reflexivity. Qed.

Section wiring.
Local Open Scope string_scope.
(* app wiring (regenerated from app/module.go on every run): governance enacts parameter changes BEFORE the marketplace
   end-blocker of the same block, so the sweep of that very block sees the Modified flags ([OGov] before [OEnd]) *)
Theorem C11_governance_runs_before_the_sweep : runs_before "govtypes.ModuleName" "vpntypes.ModuleName" end_blockers.
Proof. exact gov_before_vpn_at_block_end. Qed.
End wiring.

Print Assumptions C11_invariant_inductive.
Print Assumptions C11_genesis.
Print Assumptions C11_every_reachable_state.
Print Assumptions C11_prices_within_bounds_at_block_end.
Print Assumptions C11_register_checked.
Print Assumptions C11_update_checked.
Print Assumptions C11_quantity_checked.
Print Assumptions C11_governance_runs_before_the_sweep.
