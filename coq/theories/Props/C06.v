(* C06 — Bandwidth quota is conserved: sharing moves it, usage only consumes it.
   Statements, with proofs of a few lines where a theorem is assembled here; the proofs are in Proofs/Quota.v, Proofs/QuotaSum.v and Proofs/UsageCause.v. *)
From Hub Require Import Base.Prelude Base.Arith Model.Types Model.Keeper Model.Handlers Model.Hooks Model.Step.
From Hub Require Import Proofs.Tactics Proofs.Frames Proofs.KeysInv Proofs.Lifecycle Proofs.Quota Proofs.InvDefs Proofs.QuotaSum Proofs.Link Proofs.UsageCause.

(* For every allocation 0 <= used <= granted, at every point of every history from genesis
   (after every transaction and every block hook). *)
Theorem C06_used_within_granted : forall g ops s' k al,
  run (init g) ops = RunOk s' -> allocs s' !! k = Some al -> 0 <= al_used al <= al_granted al.
Proof.
  intros g ops s' k al H Hal.
  exact (q_alloc _ (quota_run ops (init g) 0%nat s' (kinv_init g) (quota_inv_init g) H) _ _ Hal).
Qed.

Theorem C06_invariant_inductive : forall s o s', kinv s -> quota_inv s -> step s o = OOk s' -> quota_inv s'.
Proof. exact quota_step. Qed.

(* Used never decreases and grows only when a session of that very holder on that very
   subscription is settled (the session is inactive-pending and is being removed), by at most
   the bytes that session reported; settlement never changes a grant. *)
Theorem C06_usage_only_by_own_settlement : forall s e s' x,
  kinv s -> quota_inv s -> session_expire_one s e = Ok s' -> sessions s !! e.2 = Some x ->
  forall k al al', allocs s !! k = Some al -> allocs s' !! k = Some al' ->
    al_granted al' = al_granted al /\ al_used al <= al_used al' /\
    (al_used al < al_used al' -> k = (ss_sub x, ss_addr x) /\ ss_status x = SPending /\ al_used al' <= al_used al + (ss_up x + ss_down x)).
Proof. exact settlement_usage. Qed.

(* ... and across one WHOLE operation of any kind (any transaction -- the usage report itself included --, either block
   hook with all its loop iterations, governance): the used bytes of a stored allocation never decrease, and they
   can grow only in the end-blocker, where the theorem above names the settled session iteration by iteration. *)
Theorem C06_usage_grows_only_in_end_block : forall k s o s' al al',
  life_inv s -> quota_inv s -> step s o = OOk s' ->
  allocs s !! k = Some al -> allocs s' !! k = Some al' ->
  al_used al <= al_used al' /\ (o <> OEnd -> al_used al' = al_used al).
Proof. exact usage_grows_only_in_end_block. Qed.

(* Sharing quota with another address moves it but never creates or destroys it: the granted
   bytes of every subscription add up to the same total before and after an accepted MsgAllocate,
   and (C06_used_within_granted) it never leaves a holder with less than already used. *)
Theorem C06_sharing_conserves : forall s from id to b s',
  kinv_sub s -> h_sub_allocate s from id to b = Ok s' -> forall id0, gsum s' id0 = gsum s id0.
Proof. exact allocate_conserves. Qed.

Theorem C06_settlement_conserves : forall s sid acc nd b s',
  kinv_sub s -> session_inactive_hook s sid acc nd b = Ok s' -> forall id0, gsum s' id0 = gsum s id0.
Proof. exact settlement_conserves. Qed.

(* A purchase grants exactly what was bought (10^9 bytes per gigabyte, resp. the plan's
   gigabytes) to the new subscription and nothing to any other. *)
Theorem C06_node_purchase_grants : forall s acc nd g h dn s' id,
  kinv_sub s -> create_sub_for_node s acc nd g h dn = Ok (s', id) ->
  gsum s' id = GB * g /\ forall id0, id0 <> id -> gsum s' id0 = gsum s id0.
Proof. exact node_purchase_grants. Qed.

Theorem C06_plan_purchase_grants : forall s acc pid dn s' id,
  kinv_sub s -> create_sub_for_plan s acc pid dn = Ok (s', id) ->
  (exists p, get_plan s pid = Some p /\ gsum s' id = GB * pl_gb p) /\ forall id0, id0 <> id -> gsum s' id0 = gsum s id0.
Proof. exact plan_purchase_grants. Qed.

(* The exact effect of an accepted MsgAllocate on the two allocations. *)
Theorem C06_allocate_effect : forall s from id to b s',
  h_sub_allocate s from id to b = Ok s' ->
  exists sb fal,
    subs s !! id = Some sb /\ allocs s !! (id, ta_bytes from) = Some fal /\ ta_bytes from <> ta_bytes to /\
    let tg := match allocs s !! (id, ta_bytes to) with Some t => al_granted t | None => 0 end in
    let tu := match allocs s !! (id, ta_bytes to) with Some t => al_used t | None => 0 end in
    let tal := match allocs s !! (id, ta_bytes to) with Some t => t | None => {| al_id := id; al_addr := ta_bytes to; al_granted := 0; al_used := 0 |} end in
    al_used fal <= al_granted fal + tg - b /\ tu <= b /\
    allocs s' = <[(id, ta_bytes to) := tal <| al_granted := b |>]>
                  (<[(id, ta_bytes from) := fal <| al_granted := al_granted fal + tg - b |>]> (allocs s)).
Proof. exact h_sub_allocate_spec. Qed.

(* Stated as the contrapositive: a holder who started a session on a quota subscription had quota left. *)
Theorem C06_exhausted_cannot_start : forall s from id nd s' sb,
  h_sess_start s from id nd = Ok s' -> subs s !! id = Some sb ->
  (match sb_kind sb with KNode _ _ h _ => h = 0 | KPlan _ _ => True end) ->
  exists al, allocs s !! (id, ta_bytes from) = Some al /\ al_used al < al_granted al.
Proof. exact exhausted_cannot_start. Qed.

(* In every state reachable from any genesis by any history, the granted bytes of the allocations of
   every live subscription add up to exactly what was bought: 10^9 bytes per purchased gigabyte of a
   pay-as-you-go subscription (nothing for an hourly one), 10^9 bytes per gigabyte of the plan for a
   plan subscription -- sharing moves quota between holders, settlement and expiry of OTHER
   subscriptions never touch it, nothing creates or destroys it. *)
Theorem C06_granted_sum_is_bought : forall g ops s' id sb,
  run (init g) ops = RunOk s' -> subs s' !! id = Some sb ->
  match sb_kind sb with
  | KNode _ gb _ _ => gsum s' id = GB * gb
  | KPlan pid _ => exists p, get_plan s' pid = Some p /\ gsum s' id = GB * pl_gb p
  end.
Proof. exact granted_sum_is_bought. Qed.

Theorem C06_sum_invariant_inductive : forall s o s', kinv s -> idx_sub s -> sum_inv s -> step s o = OOk s' -> sum_inv s'.
Proof. exact sum_step. Qed.

Print Assumptions C06_used_within_granted.
Print Assumptions C06_invariant_inductive.
Print Assumptions C06_usage_only_by_own_settlement.
Print Assumptions C06_sharing_conserves.
Print Assumptions C06_settlement_conserves.
Print Assumptions C06_node_purchase_grants.
Print Assumptions C06_plan_purchase_grants.
Print Assumptions C06_allocate_effect.
Print Assumptions C06_exhausted_cannot_start.
Print Assumptions C06_granted_sum_is_bought.
Print Assumptions C06_sum_invariant_inductive.
Print Assumptions C06_usage_grows_only_in_end_block.
