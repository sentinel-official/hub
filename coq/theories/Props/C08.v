(* C08 — Admission rules: only valid market actions are accepted.
   Statements only; proofs are in Proofs/Admission.v, Proofs/AdmissionConv.v and Proofs/OneActive.v.  The rules are written over public
   state ([start_rule], [node_active_now], ...); both directions where proved. *)
From Hub Require Import Base.Prelude Base.Arith Model.Types Model.Keeper Model.Handlers Model.Hooks Model.Step.
From Hub Require Import Proofs.Tactics Proofs.Frames Proofs.KeysInv Proofs.Admission Proofs.IndexSess Proofs.OneActive Proofs.RangeDefs Proofs.AdmissionConv.

(* A session can only be started on an active subscription, on an active node that the subscription
   covers (its own node — and then only by the subscriber — or a node linked to the plan and currently
   leased by the plan's provider), by a holder of unexhausted quota (or the owner of an hourly
   subscription) whose latest session on that subscription is not active. *)
Theorem C08_start_accepted_implies_rule : forall s from id nd s',
  kinv_node s -> h_sess_start s from id nd = Ok s' -> start_rule s from id (ta_bytes nd).
Proof. exact start_accepted. Qed.

(* Conversely a request meeting the rule is accepted (the two premises are instances of the index
   invariant: index entries point at live records). *)
Theorem C08_rule_implies_start_accepted : forall s from id nd,
  kinv_node s -> ta_valid RAcc from = true -> start_rule s from id (ta_bytes nd) ->
  (forall a b pid, (a, b, pid) ∈ pay_acc_node s -> is_Some (payouts s !! pid)) ->
  (forall a sid, (id, a, sid) ∈ sess_alloc s -> is_Some (sessions s !! sid)) ->
  exists s', h_sess_start s from id nd = Ok s'.
Proof. exact start_complete. Qed.

(* A subscription can only be bought against a node that is active at that moment and for a quantity
   inside the governance limits; against a plan that is active at that moment. *)
Theorem C08_node_subscription_rule : forall s from nd g h dn s',
  h_node_subscribe s from nd g h dn = Ok s' ->
  node_active_now s (ta_bytes nd) /\
  (g <> 0 -> p_min_sub_gb (pars s) <= g <= p_max_sub_gb (pars s)) /\
  (h <> 0 -> p_min_sub_hr (pars s) <= h <= p_max_sub_hr (pars s)).
Proof. exact node_subscribe_accepted. Qed.

Theorem C08_plan_subscription_rule : forall s from pid dn s',
  h_plan_subscribe s from pid dn = Ok s' -> plan_active_now s pid.
Proof. exact plan_subscribe_accepted. Qed.

(* Providers and nodes can register only once; plans need a registered provider; links need a
   registered node (and the plan). *)
Theorem C08_provider_registers_once : forall s from n i w d s',
  h_prov_register s from n i w d = Ok s' -> get_provider s (ta_bytes from) = None.
Proof. exact prov_register_accepted. Qed.
Theorem C08_provider_second_registration_rejected : forall s from n i w d p,
  get_provider s (ta_bytes from) = Some p -> h_prov_register s from n i w d = Err.
Proof. exact prov_register_twice. Qed.
(* ... and conversely: an account that is not registered yet and can pay the registration deposit IS
   registered (the deposit goes to the community pool) *)
Theorem C08_provider_registration_accepted : forall s from n i w d,
  get_provider s (ta_bytes from) = None ->
  0 <= (p_prov_deposit (pars s)).2 <= bal s (ta_bytes from) (p_prov_deposit (pars s)).1 ->
  exists s', h_prov_register s from n i w d = Ok s'.
Proof. exact prov_register_complete. Qed.
Theorem C08_node_registration_accepted : forall s from gb hr url,
  valid_gb_prices s (coins_of gb) = true -> valid_hr_prices s (coins_of hr) = true ->
  get_node s (ta_bytes from) = None ->
  0 <= (p_node_deposit (pars s)).2 <= bal s (ta_bytes from) (p_node_deposit (pars s)).1 ->
  exists s', h_node_register s from gb hr url = Ok s'.
Proof. exact node_register_complete. Qed.
Theorem C08_node_registers_once : forall s from gb hr url s',
  h_node_register s from gb hr url = Ok s' -> get_node s (ta_bytes from) = None.
Proof. exact node_register_accepted. Qed.
Theorem C08_plan_needs_provider : forall s from du g pr s',
  h_plan_create s from du g pr = Ok s' -> is_Some (get_provider s (ta_bytes from)).
Proof. exact plan_create_accepted. Qed.
Theorem C08_plan_with_provider_accepted : forall s from du g pr,
  is_Some (get_provider s (ta_bytes from)) -> exists s', h_plan_create s from du g pr = Ok s'.
Proof. exact plan_create_complete. Qed.
Theorem C08_link_needs_node : forall s from id nd s',
  h_plan_link s from id nd = Ok s' -> is_Some (get_plan s id) /\ is_Some (get_node s (ta_bytes nd)).
Proof. exact plan_link_accepted. Qed.
Theorem C08_link_accepted : forall s from id nd p,
  get_plan s id = Some p -> from = canon RProv (pl_prov p) -> is_Some (get_node s (ta_bytes nd)) ->
  exists s', h_plan_link s from id nd = Ok s'.
Proof. exact plan_link_complete. Qed.

(* In every state reachable from any genesis by any history, an account has at most one ACTIVE
   session on a subscription: two live active sessions of the same (subscription, address) are the
   same session.  (Invariant: an active session is the newest live session of its pair; MsgStart
   creates one only when the newest session of the pair is not active.) *)
Theorem C08_one_active_session : forall g ops s' x y,
  run (init g) ops = RunOk s' -> sessions s' !! ss_id x = Some x -> sessions s' !! ss_id y = Some y ->
  ss_status x = SActive -> ss_status y = SActive -> ss_sub x = ss_sub y -> ss_addr x = ss_addr y -> ss_id x = ss_id y.
Proof. exact one_active_session. Qed.

Theorem C08_one_active_invariant : forall s o s', kinv s -> idx_sess s -> one_act s -> step s o = OOk s' -> one_act s'.
Proof. exact one_act_step. Qed.

(* Conversely, a purchase that meets the admission rules and can be paid for IS accepted: an active node that
   quotes the denomination, a quantity within the governance limits, a balance covering price x quantity, and
   amounts below the supply bound (so that the checked 256-/315-bit arithmetic of the SDK cannot fail) ... *)
Theorem C08_gigabyte_purchase_accepted : forall s from nd g dn n price,
  get_node s (ta_bytes nd) = Some n -> nd_status n = SActive ->
  0 < g -> valid_sub_gb s g = true -> nd_gb_prices n !! dn = Some price ->
  0 <= price -> price * g <= bal s (ta_bytes from) dn -> price * g < BIG -> GB * g < MAXINT ->
  exists s', h_node_subscribe s from nd g 0 dn = Ok s'.
Proof. exact node_subscribe_gb_complete. Qed.

Theorem C08_hourly_purchase_accepted : forall s from nd h dn n price,
  get_node s (ta_bytes nd) = Some n -> nd_status n = SActive ->
  0 < h -> valid_sub_hr s h = true -> nd_hr_prices n !! dn = Some price ->
  0 <= price -> price * h <= bal s (ta_bytes from) dn -> price * h < MAXINT ->
  exists s', h_node_subscribe s from nd 0 h dn = Ok s'.
Proof. exact node_subscribe_hr_complete. Qed.

(* ... and likewise an active plan that quotes the denomination, bought by an account (not the fee collector
   itself) that holds the price. *)
Theorem C08_plan_purchase_accepted : forall s from pid dn p price,
  get_plan s pid = Some p -> pl_status p = SActive -> pl_prices p !! dn = Some price ->
  0 <= p_prov_share (pars s) <= P18 -> 0 <= price < BIG -> price <= bal s (ta_bytes from) dn ->
  ta_bytes from <> c_feecoll (cfg s) -> 0 <= pl_gb p -> GB * pl_gb p < MAXINT ->
  exists s', h_plan_subscribe s from pid dn = Ok s'.
Proof. exact plan_subscribe_complete. Qed.

Print Assumptions C08_start_accepted_implies_rule.
Print Assumptions C08_rule_implies_start_accepted.
Print Assumptions C08_node_subscription_rule.
Print Assumptions C08_plan_subscription_rule.
Print Assumptions C08_provider_registers_once.
Print Assumptions C08_provider_second_registration_rejected.
Print Assumptions C08_node_registers_once.
Print Assumptions C08_plan_needs_provider.
Print Assumptions C08_plan_with_provider_accepted.
Print Assumptions C08_link_needs_node.
Print Assumptions C08_link_accepted.
Print Assumptions C08_one_active_session.
Print Assumptions C08_one_active_invariant.
Print Assumptions C08_gigabyte_purchase_accepted.
Print Assumptions C08_hourly_purchase_accepted.
Print Assumptions C08_plan_purchase_accepted.
Print Assumptions C08_provider_registration_accepted.
Print Assumptions C08_node_registration_accepted.
