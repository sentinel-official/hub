(* C07 — Only a resource's owner can change it; others are rejected without effect.
   Statements, with a proof of a few lines for the upper-case example; the proofs are in Proofs/Auth.v.

   Shape: "accepted => sent by the owner".  A message that is not accepted is [ORejected],
   and a rejected transaction leaves the whole state unchanged by construction of [step]
   (baseapp's cache-context discipline; the harness checks it on the real keepers by
   comparing a raw dump of every store before and after each rejected transaction). *)
From Hub Require Import Base.Prelude Base.Arith Model.Types Model.Keeper Model.Handlers Model.Hooks Model.Step.
From Hub Require Import Proofs.Tactics Proofs.Frames Proofs.KeysInv Proofs.Auth.

Theorem C07_rejected_without_effect : forall s o ops i,
  step s o = ORejected -> run_from s (o :: ops) i = run_from (clear_events s) ops (S i).
Proof. intros s o ops i H. simpl. rewrite H. reflexivity. Qed.

(* plans, their status and their node links: only the plan's provider (provider-role text of
   exactly the provider's bytes, lower case) *)
Theorem C07_plan_status : forall s from id st s',
  step s (OTx (MPlanUpdateStatus from id st)) = OOk s' -> exists p, get_plan s id = Some p /\ from = canon RProv (pl_prov p).
Proof. exact auth_plan_update_status. Qed.
Theorem C07_plan_link : forall s from id nd s',
  step s (OTx (MPlanLink from id nd)) = OOk s' -> exists p, get_plan s id = Some p /\ from = canon RProv (pl_prov p).
Proof. exact auth_plan_link. Qed.
Theorem C07_plan_unlink : forall s from id nd s',
  step s (OTx (MPlanUnlink from id nd)) = OOk s' -> exists p, get_plan s id = Some p /\ from = canon RProv (pl_prov p).
Proof. exact auth_plan_unlink. Qed.

(* cancelling or sharing a subscription: only its owner *)
Theorem C07_subscription_cancel : forall s from id s',
  step s (OTx (MSubCancel from id)) = OOk s' ->
  exists sb, subs s !! id = Some sb /\ ta_bytes from = sb_addr sb /\ ta_role from = RAcc.
Proof. exact auth_sub_cancel. Qed.
Theorem C07_subscription_share : forall s from id to bytes s',
  step s (OTx (MSubAllocate from id to bytes)) = OOk s' ->
  exists sb, subs s !! id = Some sb /\ ta_bytes from = sb_addr sb /\ ta_role from = RAcc.
Proof. exact auth_sub_allocate. Qed.

(* ending a session: only the account that started it *)
Theorem C07_session_end : forall s from id rating s',
  step s (OTx (MSessEnd from id rating)) = OOk s' -> exists x, sessions s !! id = Some x /\ from = canon RAcc (ss_addr x).
Proof. exact auth_sess_end. Qed.

(* usage reports: only the session's node and, when proof verification is enabled, only with a
   valid signature of the subscriber over exactly the reported figures *)
Theorem C07_usage_report : forall s from id up down duration sig_len sig_ok s',
  step s (OTx (MSessUpdate from id up down duration sig_len sig_ok)) = OOk s' ->
  exists x, sessions s !! id = Some x /\ from = canon RNode (ss_node x) /\ (p_sess_proof (pars s) = true -> sig_ok = true).
Proof. exact auth_sess_update. Qed.

(* a session on a pay-as-you-go subscription: only the subscriber *)
Theorem C07_session_start_own_subscription : forall s from id nd s' sb n g h d,
  step s (OTx (MSessStart from id nd)) = OOk s' -> subs s !! id = Some sb -> sb_kind sb = KNode n g h d ->
  from = canon RAcc (sb_addr sb).
Proof. exact auth_sess_start_node_subscription. Qed.

(* token swaps: only the configured approver *)
Theorem C07_swap : forall s from hash receiver amount s',
  step s (OTx (MSwap from hash receiver amount)) = OOk s' -> p_swap_approver (pars s) = from.
Proof. exact auth_swap. Qed.

(* a provider or node record is changed only by a message from that provider or node: these
   messages act on the record stored under the sender's own bytes and on no other record *)
Theorem C07_provider_update_own_record_only : forall s from n i w d ok st s',
  kinv s -> step s (OTx (MProvUpdate from n i w d ok st)) = OOk s' ->
  forall a, a <> ta_bytes from -> prov_act s' !! a = prov_act s !! a /\ prov_inact s' !! a = prov_inact s !! a.
Proof. exact auth_prov_update_isolated. Qed.
Theorem C07_node_update_own_record_only : forall s from gb hr url ok s',
  kinv s -> step s (OTx (MNodeUpdateDetails from gb hr url ok)) = OOk s' ->
  forall a, a <> ta_bytes from -> node_act s' !! a = node_act s !! a /\ node_inact s' !! a = node_inact s !! a.
Proof. exact auth_node_update_details_isolated. Qed.
Theorem C07_node_status_own_record_only : forall s from st s',
  kinv s -> step s (OTx (MNodeUpdateStatus from st)) = OOk s' ->
  forall a, a <> ta_bytes from -> node_act s' !! a = node_act s !! a /\ node_inact s' !! a = node_inact s !! a.
Proof. exact auth_node_update_status_isolated. Qed.
Theorem C07_node_register_own_record_only : forall s from gb hr url ok s',
  step s (OTx (MNodeRegister from gb hr url ok)) = OOk s' ->
  forall a, a <> ta_bytes from -> node_act s' !! a = node_act s !! a /\ node_inact s' !! a = node_inact s !! a.
Proof. exact auth_node_register_isolated. Qed.

(* O1 (DESIGN section 1): owner checks compare texts, so the owner's own address written in upper case does not
   pass either.  As stated, only the outcome [OOk s] with the unchanged state is excluded; the proof excludes every [OOk]. *)
Example C07_uppercase_owner_rejected :
  forall s id st p, get_plan s id = Some p ->
  step s (OTx (MPlanUpdateStatus {| ta_role := RProv; ta_upper := true; ta_bytes := pl_prov p |} id st)) <> OOk s.
Proof.
  intros s id st p Hp H. apply auth_plan_update_status in H as (p' & Hp' & E). rewrite Hp in Hp'. injection Hp' as <-. discriminate E.
Qed.

Print Assumptions C07_plan_status.
Print Assumptions C07_plan_link.
Print Assumptions C07_plan_unlink.
Print Assumptions C07_subscription_cancel.
Print Assumptions C07_subscription_share.
Print Assumptions C07_session_end.
Print Assumptions C07_usage_report.
Print Assumptions C07_session_start_own_subscription.
Print Assumptions C07_swap.
Print Assumptions C07_provider_update_own_record_only.
Print Assumptions C07_node_update_own_record_only.
Print Assumptions C07_node_status_own_record_only.
Print Assumptions C07_node_register_own_record_only.
