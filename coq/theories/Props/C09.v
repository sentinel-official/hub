(* C09 — Filtered listings agree with the full listing; no dangling or missing entries.
   Statements, derived in a few lines from Proofs/IndexSess.v, IndexNode.v, IndexSub.v, IndexSub2.v,
   IndexPlan.v (the indices are exactly the images of the primary records, for every reachable
   state) and Proofs/Listing.v (what that means for the ordered listings the keepers compute). *)
From Hub Require Import Base.Prelude Base.Arith Model.Types Model.Keeper Model.Handlers Model.Hooks Model.Step.
From Hub Require Import Proofs.Tactics Proofs.Sorting Proofs.Frames Proofs.KeysInv Proofs.IndexSess Proofs.IndexNode Proofs.InvDefs
  Proofs.IndexSub Proofs.IndexSub2 Proofs.IndexPlan Proofs.Listing Proofs.IndexAll Proofs.Witness.

(* In every state reachable from any genesis by any history — after every transaction and
   every block hook — every secondary index of the store is exactly the image of the primary
   records it is derived from, every record sits under the key built from its own identifier /
   address in the partition of its status, and allocations / payouts exist exactly for the live
   subscriptions of the right kind. *)
Theorem C09_indices_exact : forall g ops s, run (init g) ops = RunOk s -> all_idx s.
Proof. exact all_idx_reachable. Qed.

Theorem C09_invariant_inductive : forall s o s', all_idx s -> step s o = OOk s' -> all_idx s'.
Proof. exact all_idx_step. Qed.

(* Each id listing below an index prefix is THE strictly ascending list of exactly the ids indexed
   under that very key: none missing, none extra, none twice, in a stable order. *)
Theorem C09_listing_is_exact : forall (ix : gset (addr * Z)) a (l : list Z),
  l = ids_for_a ix a <-> StronglySorted Z.lt l /\ forall id, id ∈ l <-> (a, id) ∈ ix.
Proof. intros ix a l. apply ids_gen_spec. Qed.

(* ... including when one address's bytes are a prefix of another's: an entry of the longer address is
   listed under it, and under the shorter one only if it is filed there too (membership in a listing is
   membership in the index under exactly that key; [ext <> []] is not needed). *)
Theorem C09_prefix_isolated : forall (ix : gset (addr * Z)) a ext id,
  ext <> [] -> (a ++ ext, id) ∈ ix -> (a, id) ∉ ix -> id ∉ ids_for_a ix a /\ id ∈ ids_for_a ix (a ++ ext).
Proof. intros ix a ext id _ Hin Hn. rewrite !elem_of_ids_for_a. split; assumption. Qed.

(* Filtered listing = the unfiltered listing filtered by the requested attribute, for every reachable state. *)
Theorem C09_sessions_for_account : forall g ops s a, run (init g) ops = RunOk s ->
  omap (fun id => sessions s !! id) (ids_for_a (sess_acc s) a) = filter (fun x => ss_addr x = a) (listing (sessions s)).
Proof. intros g ops s a H. exact (query_listing _ _ _ (sessions_for_account_ok s (ai_sess _ (all_idx_reachable g ops s H)) a)). Qed.

Theorem C09_sessions_for_node : forall g ops s a, run (init g) ops = RunOk s ->
  omap (fun id => sessions s !! id) (ids_for_a (sess_node s) a) = filter (fun x => ss_node x = a) (listing (sessions s)).
Proof. intros g ops s a H. exact (query_listing _ _ _ (sessions_for_node_ok s (ai_sess _ (all_idx_reachable g ops s H)) a)). Qed.

Theorem C09_sessions_for_subscription : forall g ops s k, run (init g) ops = RunOk s ->
  omap (fun id => sessions s !! id) (ids_for_z (sess_sub s) k) = filter (fun x => ss_sub x = k) (listing (sessions s)).
Proof. intros g ops s k H. exact (query_listing _ _ _ (sessions_for_subscription_ok s (ai_sess _ (all_idx_reachable g ops s H)) k)). Qed.

Theorem C09_sessions_for_allocation : forall g ops s k a, run (init g) ops = RunOk s ->
  omap (fun id => sessions s !! id) (ids_for_za (sess_alloc s) k a) =
  filter (fun x => ss_sub x = k /\ ss_addr x = a) (listing (sessions s)).
Proof. intros g ops s k a H. exact (query_listing _ _ _ (sessions_for_allocation_ok s (ai_sess _ (all_idx_reachable g ops s H)) k a)). Qed.

Theorem C09_subscriptions_for_node : forall g ops s n, run (init g) ops = RunOk s ->
  omap (fun id => subs s !! id) (ids_for_a (sub_node s) n) = filter (fun sb => sub_node_of sb = Some n) (listing (subs s)).
Proof. intros g ops s n H. exact (query_listing _ _ _ (subscriptions_for_node_ok s (ai_sub _ (all_idx_reachable g ops s H)) n)). Qed.

Theorem C09_subscriptions_for_plan : forall g ops s p, run (init g) ops = RunOk s ->
  omap (fun id => subs s !! id) (ids_for_z (sub_plan s) p) = filter (fun sb => sub_plan_of sb = Some p) (listing (subs s)).
Proof. intros g ops s p H. exact (query_listing _ _ _ (subscriptions_for_plan_ok s (ai_sub _ (all_idx_reachable g ops s H)) p)). Qed.

(* subscriptions of an account: those it owns or holds an allocation of — with every observable of the query *)
Theorem C09_subscriptions_for_account : forall g ops s a, run (init g) ops = RunOk s ->
  query_ok (Qdec := fun id sb => decide (sb_addr sb = a \/ is_Some (allocs s !! (id, a)))) (subs s)
    (fun id sb => sb_addr sb = a \/ is_Some (allocs s !! (id, a))) (ids_for_a (sub_acc s) a).
Proof. intros g ops s a H. exact (subscriptions_for_account_ok s (ai_sub _ (all_idx_reachable g ops s H)) a). Qed.

Theorem C09_payouts_for_account : forall g ops s a, run (init g) ops = RunOk s ->
  omap (fun id => payouts s !! id) (ids_for_a (pay_acc s) a) = filter (fun po => po_addr po = a) (listing (payouts s)).
Proof. intros g ops s a H. exact (query_listing _ _ _ (payouts_for_account_ok s (ai_sub _ (all_idx_reachable g ops s H)) a)). Qed.

Theorem C09_payouts_for_node : forall g ops s n, run (init g) ops = RunOk s ->
  omap (fun id => payouts s !! id) (ids_for_a (pay_node s) n) = filter (fun po => po_node po = n) (listing (payouts s)).
Proof. intros g ops s n H. exact (query_listing _ _ _ (payouts_for_node_ok s (ai_sub _ (all_idx_reachable g ops s H)) n)). Qed.

Theorem C09_plans_for_provider : forall g ops s a, run (init g) ops = RunOk s ->
  omap (fun id => get_plan s id) (ids_for_a (plan_prov s) a) = filter (fun p => pl_prov p = a) (listing (all_plans s)).
Proof.
  intros g ops s a H. etransitivity; [|exact (query_listing _ _ _ (plans_for_provider_ok s (ai_plan _ (all_idx_reachable g ops s H)) a))].
  apply list_omap_ext, Forall_Forall2_diag, Forall_forall. intros id _. symmetry. apply all_plans_lookup.
Qed.

(* listings by status are the full listing filtered by status *)
Theorem C09_plans_by_status : forall g ops s, run (init g) ops = RunOk s ->
  listing (plan_act s) = filter (fun p => pl_status p = SActive) (listing (all_plans s)) /\
  listing (plan_inact s) = filter (fun p => pl_status p = SInactive) (listing (all_plans s)).
Proof.
  intros g ops s H. pose proof (ki_plan _ (ai_k _ (all_idx_reachable g ops s H))) as Hk.
  split; [exact (plans_active s Hk)|exact (plans_inactive s Hk)].
Qed.

Theorem C09_nodes_by_status : forall g ops s, run (init g) ops = RunOk s ->
  filter (fun n => nd_status n = SActive) (all_nodes s) = nodes_of (node_act s) /\
  filter (fun n => nd_status n = SInactive) (all_nodes s) = nodes_of (node_inact s) /\ NoDup (all_nodes s).
Proof.
  intros g ops s H. pose proof (ki_node _ (ai_k _ (all_idx_reachable g ops s H))) as Hk.
  split; [exact (nodes_active s Hk)|split; [exact (nodes_inactive s Hk)|exact (NoDup_all_nodes s Hk)]].
Qed.

(* never an internal error: the "latest" look-ups used by MsgStart find their record *)
Theorem C09_latest_lookups_total : forall g ops s, run (init g) ops = RunOk s ->
  (forall a n, latest_payout_for s a n <> Panic /\ latest_payout_for s a n <> Err) /\
  (forall k a, latest_session_for_alloc s k a <> Panic /\ latest_session_for_alloc s k a <> Err).
Proof.
  intros g ops s H. pose proof (all_idx_reachable g ops s H) as Hi. split.
  - intros a n. unfold latest_payout_for, last_opt.
    destruct (last (ids_for_aa (pay_acc_node s) a n)) as [id|] eqn:El; [|split; discriminate].
    apply last_Some_elem_of, elem_of_ids_for_aa, (ix_payaccnode _ (ai_sub _ Hi)) in El as (po & sb & Hpo & _).
    rewrite Hpo. split; discriminate.
  - intros k a. pose proof (latest_session_for_alloc_ok s (ai_sess _ Hi) k a (ki_sess _ (ai_k _ Hi))) as L.
    destruct (latest_session_for_alloc s k a) as [[x|]| |]; try contradiction; split; discriminate.
Qed.

(* A record that has been removed is in no listing and no queue scan of that very state. *)
Theorem C09_removed_everywhere : forall g ops s, run (init g) ops = RunOk s ->
  (forall id, sessions s !! id = None ->
     (forall a, id ∉ ids_for_a (sess_acc s) a) /\ (forall a, id ∉ ids_for_a (sess_node s) a) /\
     (forall k, id ∉ ids_for_z (sess_sub s) k) /\ (forall k a, id ∉ ids_for_za (sess_alloc s) k a) /\
     (forall t T, (t, id) ∉ due_z (sess_q s) T)) /\
  (forall id, subs s !! id = None ->
     (forall a, id ∉ ids_for_a (sub_acc s) a) /\ (forall n, id ∉ ids_for_a (sub_node s) n) /\
     (forall p, id ∉ ids_for_z (sub_plan s) p) /\ (forall t T, (t, id) ∉ due_z (sub_q s) T) /\
     allocs_for s id = [] /\ payouts s !! id = None) /\
  (forall id, payouts s !! id = None ->
     (forall a, id ∉ ids_for_a (pay_acc s) a) /\ (forall n, id ∉ ids_for_a (pay_node s) n) /\
     (forall a n, id ∉ ids_for_aa (pay_acc_node s) a n) /\ (forall t T, (t, id) ∉ due_z (pay_q s) T)).
Proof.
  intros g ops s H. pose proof (all_idx_reachable g ops s H) as Hi. split; [|split].
  - intros id. exact (session_removed s id (ai_sess _ Hi)).
  - intros id. exact (subscription_removed s id (ai_sub _ Hi)).
  - intros id. exact (payout_removed s id (ai_sub _ Hi)).
Qed.

(* Every queue entry the block hooks will consume points at a live record with exactly that deadline. *)
Theorem C09_queue_entries_live : forall g ops s T, run (init g) ops = RunOk s ->
  (forall t id, (t, id) ∈ due_z (sub_q s) T -> exists sb, subs s !! id = Some sb /\ sb_inactive_at sb = t /\ t <= T) /\
  (forall t id, (t, id) ∈ due_z (sess_q s) T -> exists x, sessions s !! id = Some x /\ ss_inactive_at x = t /\ t <= T) /\
  (forall t a, (t, a) ∈ due_a (node_q s) T -> exists n, node_act s !! a = Some n /\ nd_inactive_at n = t /\ t <= T) /\
  (forall t id, (t, id) ∈ due_z (pay_q s) T ->
     exists po sb, payouts s !! id = Some po /\ po_next_at po = t /\ 0 < po_hours po /\ subs s !! id = Some sb /\
                   sb_status sb = SActive /\ t <= T).
Proof.
  intros g ops s T H. pose proof (all_idx_reachable g ops s H) as Hi. repeat split.
  - intros t id. exact (sub_q_live s t id T (ai_sub _ Hi)).
  - intros t id. exact (sess_q_live s t id T (ai_sess _ Hi)).
  - intros t a Hin. apply elem_of_due_a in Hin as [Hin Hle].
    apply (ai_node _ Hi), act_iat_spec in Hin as (n & Hn & Ht). eauto.
  - intros t id. exact (pay_q_live s t id T (ai_sub _ Hi)).
Qed.

(* node links point at registered plans and nodes *)
Theorem C09_links_live : forall g ops s id a, run (init g) ops = RunOk s ->
  (id, a) ∈ node_plan s -> is_Some (get_plan s id) /\ is_Some (get_node s a).
Proof. intros g ops s id a H. exact (ix_nodeplan _ (ai_plan _ (all_idx_reachable g ops s H)) id a). Qed.

(* non-vacuity: a reachable state with four subscriptions (one shared with an address that extends the
   owner's bytes), two sessions, three allocations, two payouts; the listings of the prefix pair differ *)
Example C09_nonvacuous :
  wt_obs wt_state2 (fun s => (size (subs s), size (sessions s), size (allocs s), size (payouts s),
                              ids_for_a (sub_acc s) [8%N], ids_for_a (sub_acc s) [8%N; 1%N], ids_for_z (sess_sub s) 4,
                              ids_for_aa (pay_acc_node s) [9%N] [7%N]))
  = Some (4%nat, 2%nat, 3%nat, 2%nat, [2; 3; 4], [4], [2], [1]).
Proof. vm_compute. reflexivity. Qed.

Print Assumptions C09_indices_exact.
Print Assumptions C09_invariant_inductive.
Print Assumptions C09_listing_is_exact.
Print Assumptions C09_prefix_isolated.
Print Assumptions C09_sessions_for_account.
Print Assumptions C09_sessions_for_node.
Print Assumptions C09_sessions_for_subscription.
Print Assumptions C09_sessions_for_allocation.
Print Assumptions C09_subscriptions_for_node.
Print Assumptions C09_subscriptions_for_plan.
Print Assumptions C09_subscriptions_for_account.
Print Assumptions C09_payouts_for_account.
Print Assumptions C09_payouts_for_node.
Print Assumptions C09_plans_for_provider.
Print Assumptions C09_plans_by_status.
Print Assumptions C09_nodes_by_status.
Print Assumptions C09_latest_lookups_total.
Print Assumptions C09_removed_everywhere.
Print Assumptions C09_queue_entries_live.
Print Assumptions C09_links_live.
