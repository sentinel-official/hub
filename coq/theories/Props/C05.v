(* C05 — Buyers pay exactly the quoted price; every payment is split without loss.
   Statements only; proofs are in Proofs/Pricing.v and Proofs/ArithThm.v.
   [moved f t d amt x d'] is the change of the balance of [x] in denomination [d'] when [amt] of
   [d] moves from [f] to [t]; every theorem gives the EXACT effect on ALL balances. *)
From Hub Require Import Base.Prelude Base.Arith Model.Types Model.Keeper Model.Handlers Model.Hooks Model.Step.
From Hub Require Import Proofs.Tactics Proofs.ArithThm Proofs.Frames Proofs.Money Proofs.Pricing.

(* A per-gigabyte subscription escrows the charge for the purchased bytes at the node's quote in the
   requested denomination at that moment — the subscriber's balance falls and the escrow rises by
   exactly that amount, nobody else changes — and a denomination the node does not quote is rejected
   (acceptance implies a quote exists). *)
Theorem C05_gigabyte_purchase : forall s acc nd g dn s' id,
  g <> 0 -> create_sub_for_node s acc nd g 0 dn = Ok (s', id) ->
  exists n price b amount,
    get_node s nd = Some n /\ nd_status n = SActive /\ nd_gb_prices n !! dn = Some price /\
    int_mul GB g = Ok b /\ amount_for_bytes price b = Ok amount /\ 0 <= amount /\
    (forall x d', bal s' x d' = bal s x d' + moved acc (c_deposit (cfg s)) dn amount x d') /\
    exists sb, subs s' !! id = Some sb /\ sb_kind sb = KNode nd g 0 (dn, amount) /\ sb_addr sb = acc.
Proof. exact node_subscribe_gigabytes. Qed.

(* ... which is exactly price x gigabytes *)
Theorem C05_gigabyte_price_exact : forall s acc nd g dn s' id n price,
  create_sub_for_node s acc nd g 0 dn = Ok (s', id) -> g <> 0 -> 0 <= g -> GB * g <= 2 ^ 128 ->
  get_node s nd = Some n -> nd_gb_prices n !! dn = Some price -> 0 <= price <= 2 ^ 128 ->
  (forall x d', bal s' x d' = bal s x d' + moved acc (c_deposit (cfg s)) dn (price * g) x d') /\
  exists sb, subs s' !! id = Some sb /\ sb_kind sb = KNode nd g 0 (dn, price * g).
Proof. exact node_subscribe_gigabyte_price. Qed.

(* A per-hour subscription escrows the quoted hourly price times the hours. *)
Theorem C05_hourly_purchase : forall s acc nd h dn s' id,
  h <> 0 -> create_sub_for_node s acc nd 0 h dn = Ok (s', id) ->
  exists n price,
    get_node s nd = Some n /\ nd_status n = SActive /\ nd_hr_prices n !! dn = Some price /\ 0 <= price * h /\
    (forall x d', bal s' x d' = bal s x d' + moved acc (c_deposit (cfg s)) dn (price * h) x d') /\
    exists sb, subs s' !! id = Some sb /\ sb_kind sb = KNode nd 0 h (dn, price * h) /\ sb_addr sb = acc.
Proof. exact node_subscribe_hours. Qed.

(* A plan subscription costs exactly the plan's price in that denomination (an unquoted denomination is
   rejected): the subscriber pays fee + (price - fee), the fee collector receives fee and the plan's
   provider the rest; fee is the provider's staking share of the price. *)
Theorem C05_plan_purchase : forall s acc pid dn s' id,
  create_sub_for_plan s acc pid dn = Ok (s', id) ->
  exists p price fee,
    get_plan s pid = Some p /\ pl_status p = SActive /\ pl_prices p !! dn = Some price /\
    proportion price (p_prov_share (pars s)) = Ok fee /\ 0 <= fee <= price /\
    forall x d', bal s' x d' = bal s x d' + moved acc (c_feecoll (cfg s)) dn fee x d' + moved acc (pl_prov p) dn (price - fee) x d'.
Proof. exact plan_subscribe_pays. Qed.

(* Every hourly payout takes exactly the hourly price out of the escrow and splits it between the
   fee collector and the node (node's staking share). *)
Theorem C05_payout_split : forall s e s',
  payout_step s e = Ok s' ->
  exists po fee,
    payouts s !! e.2 = Some po /\ proportion (po_price po).2 (p_node_share (pars s)) = Ok fee /\ 0 <= fee <= (po_price po).2 /\
    forall x d', bal s' x d' = bal s x d' + moved (c_deposit (cfg s)) (c_feecoll (cfg s)) (po_price po).1 fee x d'
                                          + moved (c_deposit (cfg s)) (po_node po) (po_price po).1 ((po_price po).2 - fee) x d'.
Proof. exact payout_split. Qed.

(* Every session settlement either moves nothing or takes one payment out of the escrow and splits it
   between the fee collector and the session's node. *)
Theorem C05_settlement_split : forall s sid acc nd b s',
  session_inactive_hook s sid acc nd b = Ok s' ->
  (forall x d', bal s' x d' = bal s x d') \/
  exists dn pay fee,
    proportion pay (p_node_share (pars s)) = Ok fee /\ 0 <= fee <= pay /\
    forall x d', bal s' x d' = bal s x d' + moved (c_deposit (cfg s)) (c_feecoll (cfg s)) dn fee x d'
                                          + moved (c_deposit (cfg s)) nd dn (pay - fee) x d'.
Proof. exact settlement_split. Qed.

(* In all three paths the parts add up to the payment and the fee collector's part is the exactly
   (half-even) rounded staking-share x payment: within half a base unit of it (hence, as the name
   says, within one). *)
Theorem C05_fee_within_one_unit : forall pay share fee,
  0 <= pay <= 2 ^ 128 -> 0 <= share <= P18 -> proportion pay share = Ok fee ->
  fee + (pay - fee) = pay /\ 0 <= fee <= pay /\ fee = chop_round (pay * share) /\ - HALF18 <= fee * P18 - pay * share <= HALF18.
Proof. exact fee_within_share. Qed.

(* (metered usage: that the charge is the exact ceiling is C16, that a settlement pays the difference
   of two cumulative charges is C02_settlement_exact) *)
Example C05_nonvacuous : proportion 1000003 (5 * 10 ^ 17) = Ok 500002 /\ amount_for_bytes 7 (GB * 3) = Ok 21.
Proof. vm_compute. split; reflexivity. Qed.

Print Assumptions C05_gigabyte_purchase.
Print Assumptions C05_gigabyte_price_exact.
Print Assumptions C05_hourly_purchase.
Print Assumptions C05_plan_purchase.
Print Assumptions C05_payout_split.
Print Assumptions C05_settlement_split.
Print Assumptions C05_fee_within_one_unit.
