(* C19 — Messages, records and genesis survive binary and JSON encoding unchanged.

   CLAIMED PARTIAL.  What is proved here is the hand-written codec code of the hub:
     * types/status.go + types/status.pb.go: how jsonpb prints a Status (hand-written String()) and reads it
       back (registered Status_value map, incl. the names added by init(); bare numbers), over the tables that
       translator/status2coq.py regenerates from the current source on every run (Gen/StatusTables.v);
     * x/swap/types/ethereum.go: EthereumHash bytes <-> hex JSON, SetBytes / BytesToHash.
     (Address text, types/address.go, is bech32 and is in Props/C17.v and Proofs/Bech32Thm.v.)
   What is NOT modelled: the gogoproto-generated binary codec and jsonpb for all other field kinds (trusted
   generated code).  For those the check runs an implementation-side round-trip monitor (`harness codec`):
   generated values of every message type registered under `sentinel.`, binary and JSON, genesis entry points,
   tx JSON flow.  The model of this file is tied to the code by correspondence (`harness codec -dump`).

   Statements only; proofs are in Proofs/CodecThm.v. *)
From Coq Require Import ZArith NArith String List Permutation.
From Hub Require Import Gen.StatusTables Model.StatusCodec Model.HashCodec Proofs.CodecThm.
Import ListNotations.

(* every declared status value, printed the way the chain prints it in JSON, is read back as itself *)
Theorem C19_status_json_roundtrip :
  forall v, In v declared_values -> parse_status_json (print_status_json v) = Some v.
Proof. exact status_json_roundtrip. Qed.

(* ... whatever order Go's map iteration takes inside types/status.go init() *)
Theorem C19_status_json_roundtrip_any_init_order :
  forall order, Permutation order declared_values ->
  forall v, In v declared_values ->
  parse_enum_json (status_value_runtime_of order) (print_status_json v) = Some v.
Proof. exact status_json_roundtrip_any_init_order. Qed.

(* the generated STATUS_* spellings keep their meaning *)
Theorem C19_status_generated_names_parse :
  forall v name, In (v, name) status_name_pb -> parse_status_json (StatusCodec.quote name) = Some v.
Proof. exact status_generated_names_parse. Qed.

(* a status written as a bare number is read back as that number, for every int32 *)
Theorem C19_status_json_number_roundtrip :
  forall z, in_int32 z = true -> parse_status_json (itoa z) = Some z.
Proof. exact status_json_number_roundtrip. Qed.

(* command-line / query text: StatusFromString (s.String()) = s *)
Theorem C19_status_from_string_roundtrip :
  forall v, In v declared_values -> status_from_string (status_string v) = v.
Proof. exact status_from_string_roundtrip. Qed.

(* the historical defect (F4): with the generated Status_value table alone, i.e. without the names that
   init() registers, the statement is false *)
Theorem C19_status_json_generated_only_refuted :
  exists v, In v declared_values /\ parse_status_json_generated_only (print_status_json v) <> Some v.
Proof. exists 1%Z. split; [vm_compute; tauto|vm_compute; discriminate]. Qed.

(* boundary: numbers outside the declared enum (invalid everywhere in the hub) are not preserved by JSON *)
Theorem C19_status_json_undeclared_not_preserved :
  exists v, ~ In v declared_values /\ status_is_valid v = false /\
            parse_status_json (print_status_json v) = Some 0%Z /\ v <> 0%Z.
Proof. exact status_json_undeclared_not_preserved. Qed.

(* hex text of any byte list decodes to the same bytes (lower case as written, and upper case) *)
Theorem C19_hex_roundtrip : forall l, bytes_ok l -> hex_decode (hex_encode l) = Some l.
Proof. exact hex_roundtrip. Qed.

Theorem C19_hex_roundtrip_upper : forall l, bytes_ok l -> hex_decode (upper_hex (hex_encode l)) = Some l.
Proof. exact hex_roundtrip_upper. Qed.

(* BytesToHash: always 32 bytes; left-pads short input with zeros; keeps the last 32 bytes of long input *)
Theorem C19_bytes_to_hash_length : forall b, length (bytes_to_hash b) = HASH_LEN.
Proof. exact bytes_to_hash_length. Qed.

Theorem C19_bytes_to_hash_short : forall b, (length b <= HASH_LEN)%nat ->
  bytes_to_hash b = repeat 0%N (HASH_LEN - length b) ++ b.
Proof. exact bytes_to_hash_short. Qed.

Theorem C19_bytes_to_hash_long : forall b, (HASH_LEN < length b)%nat ->
  bytes_to_hash b = skipn (length b - HASH_LEN) b.
Proof. exact bytes_to_hash_long. Qed.

(* EthereumHash binary and JSON round trips for every 32-byte value *)
Theorem C19_hash_binary_roundtrip : forall e, length e = HASH_LEN -> hash_unmarshal (hash_marshal e) = e.
Proof. exact hash_binary_roundtrip. Qed.

Theorem C19_hash_json_roundtrip : forall e, length e = HASH_LEN -> bytes_ok e ->
  hash_unmarshal_json (hash_marshal_json e) = JOk e.
Proof. exact hash_json_roundtrip. Qed.

(* non-vacuity *)
Example C19_ex_declared : declared_values = [0; 1; 2; 3]%Z.
Proof. vm_compute. reflexivity. Qed.
Example C19_ex_print : print_status_json 1 = """active"""%string /\ print_status_json 2 = """inactive_pending"""%string.
Proof. vm_compute. split; reflexivity. Qed.
Example C19_ex_parse : parse_status_json """inactive"""%string = Some 3%Z /\ parse_status_json """STATUS_INACTIVE"""%string = Some 3%Z
                       /\ parse_status_json "3"%string = Some 3%Z /\ parse_status_json """Inactive"""%string = None
                       /\ parse_status_json """3"""%string = None /\ parse_status_json "03"%string = None.
Proof. vm_compute. repeat split; reflexivity. Qed.
Example C19_ex_hex : hex_encode [0; 171; 255]%N = "00abff"%string /\ hex_decode "00ABff"%string = Some [0; 171; 255]%N
                     /\ hex_decode "0"%string = None /\ hex_decode "0g"%string = None.
Proof. vm_compute. repeat split; reflexivity. Qed.
Example C19_ex_hash : bytes_to_hash [1; 2]%N = repeat 0%N 30 ++ [1; 2]%N
                      /\ bytes_to_hash (7 :: repeat 9 32)%N = repeat 9%N 32.
Proof. vm_compute. split; reflexivity. Qed.

Print Assumptions C19_status_json_roundtrip.
Print Assumptions C19_status_json_roundtrip_any_init_order.
Print Assumptions C19_status_generated_names_parse.
Print Assumptions C19_status_json_number_roundtrip.
Print Assumptions C19_status_from_string_roundtrip.
Print Assumptions C19_status_json_generated_only_refuted.
Print Assumptions C19_status_json_undeclared_not_preserved.
Print Assumptions C19_hex_roundtrip.
Print Assumptions C19_hex_roundtrip_upper.
Print Assumptions C19_bytes_to_hash_length.
Print Assumptions C19_bytes_to_hash_short.
Print Assumptions C19_bytes_to_hash_long.
Print Assumptions C19_hash_binary_roundtrip.
Print Assumptions C19_hash_json_roundtrip.
