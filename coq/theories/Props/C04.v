(* C04 — Lifecycles only move forward; deadlines are met, never early, never late.
   Statements, with proofs of a few lines where a theorem is assembled here; the proofs are in Proofs/Lifecycle.v (statuses move forward, identifiers are never
   re-issued), Proofs/Link.v (the end-blocker leaves no due record; pending sessions never outlive
   their subscription; what every demotion/removal stores), Proofs/Cause.v, CauseSess.v, CauseNode.v
   (why a record is demoted or removed), Proofs/Events.v (the emitted events) and Proofs/Sorting.v
   (only due queue entries are scanned). *)
From Hub Require Import Base.Prelude Base.Arith Model.Types Model.Keeper Model.Handlers Model.Hooks Model.Step.
From Hub Require Import Proofs.Tactics Proofs.Sorting Proofs.Frames Proofs.KeysInv Proofs.Lifecycle Proofs.IndexSess Proofs.IndexNode
  Proofs.InvDefs Proofs.IndexSub Proofs.IndexSub2 Proofs.IndexAll Proofs.Link Proofs.Witness Proofs.Cause Proofs.CauseSess Proofs.CauseNode Proofs.Events.

(* The life-cycle invariant (indices exact, parameters sane, every session linked to a live
   subscription which it cannot outlive) holds in every state of every history with increasing block
   times and parameter changes inside DESIGN §5.3, from every genesis with sane parameters. *)
Theorem C04_invariant : forall g ops s,
  par_ok (g_params g) -> wf_hist wf_op_life (init g) ops -> run (init g) ops = RunOk s -> life_inv s.
Proof. intros g ops s Hp Hwf H. exact (life_run ops (init g) 0%nat s (life_init g Hp) Hwf H). Qed.

Theorem C04_invariant_inductive : forall s o s', life_inv s -> wf_op_life s o -> step s o = OOk s' -> life_inv s'.
Proof. exact life_step. Qed.

(* Subscriptions and sessions only ever go active -> inactive-pending -> removed: in one operation a
   record either keeps its status or moves from active to pending (identity, owner, kind unchanged),
   or disappears; new records are created active with the next identifier. *)
Theorem C04_status_forward : forall s o s',
  kinv s -> step s o = OOk s' -> (sub_evo s s' \/ sub_new s s') /\ (sess_evo s s' \/ sess_new s s').
Proof. exact evo_step. Qed.

(* ... and a removed record never comes back (its identifier is never issued again). *)
Theorem C04_removed_stays_removed : forall ops s i s' id,
  kinv s -> run_from s ops i = RunOk s' ->
  (id <= sub_count s -> subs s !! id = None -> subs s' !! id = None) /\
  (id <= sess_count s -> sessions s !! id = None -> sessions s' !! id = None).
Proof. exact ids_never_reissued. Qed.

(* At the end of every block no node, subscription or session remains whose deadline is at or before
   the block time. *)
Theorem C04_deadlines_met : forall s s',
  life_inv s -> step s OEnd = OOk s' ->
  (forall sid x, sessions s' !! sid = Some x -> now s' < ss_inactive_at x) /\
  (forall id sb, subs s' !! id = Some sb -> now s' < sb_inactive_at sb) /\
  (forall a n, node_act s' !! a = Some n -> now s' < nd_inactive_at n).
Proof. exact deadlines_met. Qed.

(* Never early: the end-blockers only touch records whose queue entry is due ... *)
Theorem C04_only_due_entries_scanned : forall s,
  (forall e, e ∈ due_z (sub_q s) (now s) -> e ∈ sub_q s /\ e.1 <= now s) /\
  (forall e, e ∈ due_z (sess_q s) (now s) -> e ∈ sess_q s /\ e.1 <= now s) /\
  (forall e, e ∈ due_a (node_q s) (now s) -> e ∈ node_q s /\ e.1 <= now s) /\
  (forall e, e ∈ due_z (pay_q s) (now s) -> e ∈ pay_q s /\ e.1 <= now s).
Proof.
  intros s. repeat split; try (apply elem_of_due_z in H; tauto); try (apply elem_of_due_a in H; tauto).
Qed.

(* ... and processing the entry of subscription [e.2] changes that subscription only: an active one
   becomes pending until exactly now + the configured delay, a pending one is removed; all sessions of
   a demoted subscription that were still active become pending until now + the session delay. *)
Theorem C04_subscription_expiry_exact : forall s e s' sb,
  kinv s -> idx_sess s -> subs s !! e.2 = Some sb -> sb_id sb = e.2 -> sub_expire_one s e = Ok s' ->
  now s' = now s /\ pars s' = pars s /\
  (subs s' = if bool_decide (sb_status sb = SActive)
             then <[e.2 := sb <| sb_inactive_at := now s + p_sub_delay (pars s) |> <| sb_status := SPending |> <| sb_status_at := now s |>]> (subs s)
             else delete e.2 (subs s)) /\
  (forall sid, sessions s' !! sid = if bool_decide (sb_status sb = SActive)
                                    then demote_sess e.2 (now s + p_sess_delay (pars s)) (now s) <$> sessions s !! sid
                                    else sessions s !! sid).
Proof. exact sub_expire_one_fields. Qed.

Theorem C04_session_expiry_exact : forall s e s' x,
  sessions s !! e.2 = Some x -> ss_id x = e.2 -> session_expire_one s e = Ok s' ->
  now s' = now s /\ pars s' = pars s /\
  sessions s' = if bool_decide (ss_status x = SActive)
                then <[e.2 := x <| ss_inactive_at := now s + p_sess_delay (pars s) |> <| ss_status := SPending |> <| ss_status_at := now s |>]> (sessions s)
                else delete e.2 (sessions s).
Proof. exact session_expire_one_sessions. Qed.

Theorem C04_node_expiry_exact : forall s e s' n,
  kinv_node s -> node_act s !! e.2 = Some n -> node_expire_one s e = Ok s' ->
  now s' = now s /\ node_act s' = delete e.2 (node_act s).
Proof. exact node_expire_one_fields. Qed.

(* A session never outlives its subscription: in every reachable state each session belongs to a live
   subscription, an active session to an active one, and a pending session's deadline is not after the
   removal deadline of its (pending) subscription. *)
Theorem C04_session_within_subscription : forall g ops s sid x,
  par_ok (g_params g) -> wf_hist wf_op_life (init g) ops -> run (init g) ops = RunOk s ->
  sessions s !! sid = Some x ->
  exists sb, subs s !! ss_sub x = Some sb /\
    (ss_status x = SActive -> sb_status sb = SActive) /\
    (ss_status x = SPending -> sb_status sb = SPending -> ss_inactive_at x <= sb_inactive_at sb).
Proof.
  intros g ops s sid x Hp Hwf H Hx. destruct (lf_link _ (C04_invariant g ops s Hp Hwf H)) as [L].
  destruct (L _ _ Hx) as (sb & Hsb & _ & L1 & L2 & _). eauto.
Qed.

(* Hourly payouts: one step of the payout loop pays the payout whose queue entry it was given, lowers
   its hours by exactly one and moves its due time on by exactly one hour (zero time when exhausted);
   C04_only_due_entries_scanned says the entry was due, and in every reachable state the queue holds
   only payouts of ACTIVE subscriptions with hours left, at their due time (C09_indices_exact). *)
Theorem C04_payout_exact : forall s e s' po,
  payouts s !! e.2 = Some po -> payout_step s e = Ok s' ->
  let h := po_hours po - 1 in
  let nx := if h =? 0 then tzero else po_next_at po + HOUR in
  subs s' = subs s /\ allocs s' = allocs s /\ sub_q s' = sub_q s /\ sub_acc s' = sub_acc s /\ sub_node s' = sub_node s /\
  sub_plan s' = sub_plan s /\ pay_acc s' = pay_acc s /\ pay_node s' = pay_node s /\ pay_acc_node s' = pay_acc_node s /\
  payouts s' = <[po_id po := po <| po_hours := h |> <| po_next_at := nx |>]> (payouts s) /\
  pay_q s' = if 0 <? h then (pay_q s ∖ {[ (po_next_at po, po_id po) ]}) ∪ {[ (nx, po_id po) ]}
             else pay_q s ∖ {[ (po_next_at po, po_id po) ]}.
Proof. exact payout_step_spec. Qed.

(* The CAUSE of every demotion and removal of a subscription, seen across one whole operation of any
   kind (any transaction, either block hook with all its loop iterations, governance): a stored
   subscription goes active -> inactive-pending only by its owner's MsgCancel or in the end-blocker of
   a block at or after its deadline, and is then pending until exactly now + the delay in force ... *)
Theorem C04_subscription_demotion_cause : forall s o s' id sb sb',
  life_inv s -> step s o = OOk s' -> subs s !! id = Some sb -> subs s' !! id = Some sb' ->
  sb_status sb = SActive -> sb_status sb' = SPending ->
  sb_inactive_at sb' = now s + p_sub_delay (pars s) /\
  ((exists from, o = OTx (MSubCancel from id) /\ ta_bytes from = sb_addr sb) \/ (o = OEnd /\ sb_inactive_at sb <= now s)).
Proof. exact sub_demotion_cause. Qed.

(* ... it is removed only in the end-blocker of a block at or after the end of its pending period, never
   while it was still active when the operation started ... *)
Theorem C04_subscription_removal_cause : forall s o s' id sb,
  life_inv s -> step s o = OOk s' -> subs s !! id = Some sb -> subs s' !! id = None ->
  o = OEnd /\ sb_status sb = SPending /\ sb_inactive_at sb <= now s.
Proof. exact sub_removal_cause. Qed.

(* ... and nothing else ever happens to a stored subscription: same status => same record. *)
Theorem C04_subscription_untouched_otherwise : forall s o s' id sb sb',
  life_inv s -> step s o = OOk s' -> subs s !! id = Some sb -> subs s' !! id = Some sb' ->
  sb_status sb' = sb_status sb -> sb' = sb.
Proof. exact sub_untouched_otherwise. Qed.

(* The same for SESSIONS: a stored session goes active -> inactive-pending only by its owner's MsgEnd, by
   the cancellation of its subscription by that subscription's owner, or in the end-blocker of a block
   at or after its own deadline or at or after the deadline of its (active) subscription -- and is then
   pending until exactly now + the session delay in force ... *)
Theorem C04_session_demotion_cause : forall s o s' id x x',
  life_inv s -> step s o = OOk s' -> sessions s !! id = Some x -> sessions s' !! id = Some x' ->
  ss_status x = SActive -> ss_status x' = SPending ->
  ss_inactive_at x' = now s + p_sess_delay (pars s) /\
  ((exists from rating, o = OTx (MSessEnd from id rating) /\ from = canon RAcc (ss_addr x)) \/
   (exists from sb, o = OTx (MSubCancel from (ss_sub x)) /\ subs s !! ss_sub x = Some sb /\ ta_bytes from = sb_addr sb) \/
   (o = OEnd /\ (ss_inactive_at x <= now s \/
                 exists sb, subs s !! ss_sub x = Some sb /\ sb_status sb = SActive /\ sb_inactive_at sb <= now s))).
Proof. exact sess_demotion_cause. Qed.

(* ... it is removed (the only point at which it is settled: [session_expire_one] calls the settlement hook
   exactly when it deletes the record) only in the end-blocker of a block at or after the end of its
   pending period, never while it was still active when the operation started ... *)
Theorem C04_session_removal_cause : forall s o s' id x,
  life_inv s -> step s o = OOk s' -> sessions s !! id = Some x -> sessions s' !! id = None ->
  o = OEnd /\ ss_status x = SPending /\ ss_inactive_at x <= now s.
Proof. exact sess_removal_cause. Qed.

(* ... and the deadline of a pending session never moves (usage reports refresh only an ACTIVE session). *)
Theorem C04_pending_session_deadline_fixed : forall s o s' id x x',
  life_inv s -> step s o = OOk s' -> sessions s !! id = Some x -> sessions s' !! id = Some x' ->
  ss_status x = SPending -> ss_status x' = SPending /\ ss_inactive_at x' = ss_inactive_at x.
Proof. exact pending_session_deadline_fixed. Qed.

(* NODES: an active node stops being active, across one whole operation, only by its own MsgUpdateStatus(inactive)
   or in the end-blocker of a block at or after the end of its lease (a price sweep in the same end-blocker never
   deactivates it). *)
Theorem C04_node_deactivation_cause : forall s o s' a n,
  life_inv s -> step s o = OOk s' -> node_act s !! a = Some n -> node_act s' !! a = None ->
  (exists from, o = OTx (MNodeUpdateStatus from SInactive) /\ ta_bytes from = a) \/ (o = OEnd /\ nd_inactive_at n <= now s).
Proof. exact node_deactivation_cause. Qed.

(* THE EVENT LIST (the observable the correspondence check compares with the real chain's events).
   In the events of one whole operation of any kind the removal event of session [id]
   ("session.EventUpdateStatus", status inactive, that identifier) occurs exactly once if the stored
   session disappears in this operation and not at all otherwise; its settlement payment event
   ("subscription.EventPayForSession" carrying that session identifier) occurs at most as often. *)
Theorem C04_session_events_in_one_operation : forall s o s' id,
  life_inv s -> step s o = OOk s' ->
  cnt (is_removed_ev id) (events s') = removed_in s s' id /\
  cnt (is_paysess_ev id) (events s') <= removed_in s s' id.
Proof. exact step_session_events. Qed.

(* Over a whole history (the concatenated event lists of all its operations): a session is removed --
   and settled -- at most once, and exactly once if it was stored at the start and is gone at the end. *)
Theorem C04_session_settled_at_most_once : forall ops s id,
  life_inv s -> wf_hist wf_op_life s ops ->
  cnt (is_removed_ev id) (trace s ops) <= 1 /\
  cnt (is_paysess_ev id) (trace s ops) <= cnt (is_removed_ev id) (trace s ops).
Proof. exact trace_settled_at_most_once. Qed.

Theorem C04_session_settled_exactly_once : forall ops s i s' id x,
  life_inv s -> wf_hist wf_op_life s ops -> run_from s ops i = RunOk s' ->
  sessions s !! id = Some x -> sessions s' !! id = None ->
  cnt (is_removed_ev id) (trace s ops) = 1.
Proof. exact trace_settled_exactly_once. Qed.

(* An hourly payout event for payout [id] occurs only in a begin-blocker, at most once per block, only
   when the payout is due (next_at <= block time) and its subscription is active, and takes exactly
   one hour off the payout while moving its due time on by exactly one hour: at most once per due
   hour and never before it is due. *)
Theorem C04_hourly_payout_once_per_due_hour : forall s o s' id,
  life_inv s -> step s o = OOk s' ->
  let k := cnt (is_payout_ev id) (events s') in
  k = 0 \/
  (k = 1 /\ exists t po, o = OBegin t /\ payouts s !! id = Some po /\ po_next_at po <= t /\ 0 < po_hours po /\
            (exists sb, subs s !! id = Some sb /\ sb_status sb = SActive) /\
            payouts s' !! id = Some (po <| po_hours := po_hours po - 1 |>
                                        <| po_next_at := if po_hours po - 1 =? 0 then tzero else po_next_at po + HOUR |>)).
Proof. exact step_payout_events. Qed.

(* ... and over a whole history a payout is paid at most as many times as it has hours left (so a subscription for h hours
   is paid at most h hourly payouts in total, whatever the block gaps and stalls) *)
Theorem C04_hourly_payouts_within_hours : forall ops s id po,
  life_inv s -> wf_hist wf_op_life s ops -> payouts s !! id = Some po ->
  cnt (is_payout_ev id) (trace s ops) <= Z.max 0 (po_hours po).
Proof. exact trace_payouts_within_hours. Qed.

(* non-vacuity: in the witness history session 1 is removed once and paid for once, payouts 1 and 3 are
   each paid twice (in two different blocks), among 43 events *)
Example C04_events_nonvacuous :
  let tr := trace (init wt_genesis) (wt_ops1 ++ wt_ops2 ++ wt_ops3) in
  (length tr, map (fun id => (cnt (is_removed_ev id) tr, cnt (is_paysess_ev id) tr, cnt (is_payout_ev id) tr)) [1; 2; 3])
  = (43%nat, [(1, 1, 2); (0, 0, 0); (0, 0, 2)]).
Proof. vm_compute. reflexivity. Qed.


(* non-vacuity: the witness history satisfies the hypotheses, and in its last block a session was
   settled and removed exactly at its deadline while the other one lives on *)
Example C04_nonvacuous :
  par_ok wt_params /\
  wt_obs wt_state2 (fun s => (ss_status <$> sessions s !! 1, ss_inactive_at <$> sessions s !! 1)) = Some (Some SPending, Some 2120) /\
  wt_obs wt_state3 (fun s => (size (sessions s), ss_status <$> sessions s !! 2, bool_decide (now s < default 0 (ss_inactive_at <$> sessions s !! 2))))
    = Some (1%nat, Some SPending, true).
Proof. split; [split; vm_compute; intuition discriminate|]. split; vm_compute; reflexivity. Qed.

(* the witness history is well formed (increasing block times), so C04_invariant applies to it *)
Example C04_witness_well_formed : wf_hist wf_op_life (init wt_genesis) (wt_ops1 ++ wt_ops2 ++ wt_ops3).
Proof. vm_compute. repeat split. Qed.

Print Assumptions C04_invariant.
Print Assumptions C04_invariant_inductive.
Print Assumptions C04_status_forward.
Print Assumptions C04_removed_stays_removed.
Print Assumptions C04_deadlines_met.
Print Assumptions C04_only_due_entries_scanned.
Print Assumptions C04_subscription_expiry_exact.
Print Assumptions C04_session_expiry_exact.
Print Assumptions C04_node_expiry_exact.
Print Assumptions C04_session_within_subscription.
Print Assumptions C04_payout_exact.
Print Assumptions C04_subscription_demotion_cause.
Print Assumptions C04_subscription_removal_cause.
Print Assumptions C04_subscription_untouched_otherwise.
Print Assumptions C04_session_demotion_cause.
Print Assumptions C04_session_removal_cause.
Print Assumptions C04_pending_session_deadline_fixed.
Print Assumptions C04_node_deactivation_cause.
Print Assumptions C04_session_events_in_one_operation.
Print Assumptions C04_session_settled_at_most_once.
Print Assumptions C04_session_settled_exactly_once.
Print Assumptions C04_hourly_payout_once_per_due_hour.
Print Assumptions C04_hourly_payouts_within_hours.
