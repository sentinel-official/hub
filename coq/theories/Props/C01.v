(* C01 — Escrow is fully backed and the marketplace never creates or destroys coins.
   The proofs are in Proofs/Money.v, Proofs/Supply.v and Proofs/Flow.v. *)
From Hub Require Import Base.Prelude Base.Arith Model.Types Model.Keeper Model.Handlers Model.Hooks Model.Step.
From Hub Require Import Proofs.Tactics Proofs.Frames Proofs.Money Proofs.Supply Proofs.KeysInv Proofs.Flow.
From Hub Require Import Gen.Wiring Proofs.WiringThm.

(* After every operation of every history (every block, every transaction valid or
   not, from any actor that is not a module account) started in a state satisfying the
   money invariant — in particular any genesis of DESIGN section 5.2 — the escrow
   account equals, denomination by denomination, the sum of the deposit records. *)
Theorem C01_escrow_backed : forall ops s s',
  money_inv s -> wf_ops s ops -> run s ops = RunOk s' ->
  forall d, bal s' (c_deposit (cfg s')) d = dep_total s' d.
Proof. intros ops s s' Hi Hw Hr. exact (mi_escrow _ (money_inv_run ops s 0%nat s' Hi Hw Hr)). Qed.

(* ... and in every such state the balances of each denomination add up to its supply:
   whatever leaves one balance arrives in another in the same step. *)
Theorem C01_balances_add_up_to_supply : forall ops s s',
  money_inv s -> wf_ops s ops -> run s ops = RunOk s' ->
  forall d, bank_total s' d = amount_of (supply s') d.
Proof. intros ops s s' Hi Hw Hr. exact (mi_total _ (money_inv_run ops s 0%nat s' Hi Hw Hr)). Qed.

(* one step: the invariant is inductive (also at the intermediate points inside a block) *)
Theorem C01_invariant_inductive : forall s o s',
  money_inv s -> wf_op s o -> step s o = OOk s' -> money_inv s'.
Proof. exact money_inv_step. Qed.

(* the genesis states of the domain satisfy it *)
Theorem C01_genesis : forall g, wf_genesis g -> money_inv (init g).
Proof. exact money_inv_init. Qed.

(* no marketplace message and no begin/end-of-block step mints or burns: every
   operation other than a swap request leaves the supply untouched *)
Theorem C01_no_mint_no_burn : forall s o s',
  (forall m, o = OTx m -> is_swap m = false) -> step s o = OOk s' -> supply s' = supply s.
Proof. intros s o s' Hm H. exact (proj1 (non_swap_step s o s' Hm H)). Qed.

(* a rejected operation leaves the state as it was but for the cleared event list (failed transfers
   leave balances untouched) *)
Theorem C01_rejected_unchanged : forall s o ops i,
  step s o = ORejected -> run_from s (o :: ops) i = run_from (clear_events s) ops (S i).
Proof. intros s o ops i H. simpl. rewrite H. reflexivity. Qed.

(* non-vacuity: a concrete genesis record is well formed, so [money_inv_init] applies to it *)
Example C01_nonvacuous :
  let c := {| c_deposit := [1%N]; c_feecoll := [2%N]; c_distr := [3%N]; c_swap := [4%N]; c_blocked := [[1%N]; [2%N]; [3%N]; [4%N]] |} in
  wf_genesis {| g_cfg := c; g_balances := [([9%N], (1%N, 500))]; g_params := g_params_dummy; g_inflations := []; g_mint := (0, 0, 0, 0); g_time := 0 |}.
Proof.
  split.
  - split; simpl; try discriminate. set_solver.
  - intros a c0 H. simpl in H. apply elem_of_list_singleton in H. injection H as -> _. discriminate.
Qed.

(* Where coins can ARRIVE.  Across one whole operation -- any transaction, either block hook with all its loop iterations,
   governance -- an account's balance in any denomination grows only if the account is the escrow account, the fee
   collector, the community pool (distribution module account), the provider of a stored plan, the node of a stored
   payout or session, or the subscriber of a stored subscription or payout; for a swap (C14) also the named receiver.
   Together with C01_no_mint_no_burn (supply unchanged by every non-swap operation) and C01_balances_add_up_to_supply:
   whatever leaves a balance or the escrow arrives, in the same step, in one of these accounts. *)
Theorem C01_coins_arrive_only_at_parties : forall s o s' x,
  kinv s -> step s o = OOk s' -> (exists d, bal s x d < bal s' x d) ->
  x = c_deposit (cfg s) \/ x = c_feecoll (cfg s) \/ x = c_distr (cfg s) \/
  (exists id p, get_plan s id = Some p /\ pl_prov p = x) \/
  (exists id po, payouts s !! id = Some po /\ (po_node po = x \/ po_addr po = x)) \/
  (exists id y, sessions s !! id = Some y /\ ss_node y = x) \/
  (exists id sb, subs s !! id = Some sb /\ sb_addr sb = x) \/
  (exists from hash receiver amount, o = OTx (MSwap from hash receiver amount) /\ x = ta_bytes receiver).
Proof.
  intros s o s' x Hi Hs G. destruct (flow_step s o s' x Hi Hs G) as [R|R]; unfold recipient in *; tauto.
Qed.

Section wiring.
Local Open Scope string_scope.
(* app wiring (regenerated from app/module.go on every run): the escrow account can neither mint nor burn,
   and every module account is a blocked recipient *)
Theorem C01_escrow_account_cannot_mint_or_burn : perms_of "deposittypes.ModuleName" = Some [].
Proof. exact deposit_cannot_mint_or_burn. Qed.
Theorem C01_payees_are_module_accounts :
  perms_of "authtypes.FeeCollectorName" = Some [] /\ perms_of "distributiontypes.ModuleName" = Some [] /\ blocked_is_all_module_accounts = true.
Proof. exact payees_are_module_accounts. Qed.
End wiring.

Print Assumptions C01_escrow_backed.
Print Assumptions C01_balances_add_up_to_supply.
Print Assumptions C01_invariant_inductive.
Print Assumptions C01_genesis.
Print Assumptions C01_no_mint_no_burn.
Print Assumptions C01_escrow_account_cannot_mint_or_burn.
Print Assumptions C01_payees_are_module_accounts.
Print Assumptions C01_coins_arrive_only_at_parties.
