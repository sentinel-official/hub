(* C18 — Identifiers are issued in increasing order and never reused.
   Proofs are in Proofs/KeysInv.v and Proofs/Lifecycle.v; two short ones are given here.

   [kinv] (key/record agreement: every record is stored under its own identifier, every
   live identifier is between 1 and the counter of its kind) holds in the genesis state
   and after every operation of every history. *)
From Hub Require Import Base.Prelude Base.Arith Model.Types Model.Keeper Model.Handlers Model.Hooks Model.Step.
From Hub Require Import Proofs.Tactics Proofs.Frames Proofs.KeysInv Proofs.Lifecycle.

Theorem C18_invariant_everywhere : forall g ops s', run (init g) ops = RunOk s' -> kinv s'.
Proof. intros g ops s' H. exact (kinv_run ops (init g) 0%nat s' (kinv_init g) H). Qed.

(* Subscriptions: in one operation either nothing is created (counter unchanged, every record
   descends from the record with the same identifier and keeps identifier, owner and kind),
   or exactly one subscription is created and it gets the identifier counter+1, which becomes
   the new counter.  Same for sessions.  So the k-th accepted creation gets identifier k. *)
Theorem C18_subscriptions_sequential : forall s o s',
  kinv s -> step s o = OOk s' -> sub_evo s s' \/ sub_new s s'.
Proof. intros s o s' Hi H. exact (proj1 (evo_step s o s' Hi H)). Qed.

Theorem C18_sessions_sequential : forall s o s',
  kinv s -> step s o = OOk s' -> sess_evo s s' \/ sess_new s s'.
Proof. intros s o s' Hi H. exact (proj2 (evo_step s o s' Hi H)). Qed.

(* Plans: created with identifier counter+1, never removed, never re-identified. *)
Theorem C18_plans_sequential : forall s o s',
  kinv s -> step s o = OOk s' -> plan_evo s s' \/ plan_new s s'.
Proof. exact plan_step. Qed.

(* A rejected request consumes no identifier: the history continues from the state it found, with only
   the event list emptied. *)
Theorem C18_rejected_consumes_none : forall s o ops i,
  step s o = ORejected -> run_from s (o :: ops) i = run_from (clear_events s) ops (S i).
Proof. intros s o ops i H. simpl. rewrite H. reflexivity. Qed.

(* Never reused: an identifier at or below the counter whose record is gone (or was never
   there) stays unused for the rest of every history. *)
Theorem C18_never_reissued : forall ops s s' id,
  kinv s -> run s ops = RunOk s' ->
  (id <= sub_count s -> subs s !! id = None -> subs s' !! id = None) /\
  (id <= sess_count s -> sessions s !! id = None -> sessions s' !! id = None).
Proof. intros ops s s' id. exact (ids_never_reissued ops s 0%nat s' id). Qed.

(* Allocations and payouts carry the identifier of the subscription they are stored under,
   sessions and subscriptions their own, and every live identifier is within the counter. *)
Theorem C18_children_carry_id : forall s,
  kinv s ->
  (forall id a al, allocs s !! (id, a) = Some al -> al_id al = id /\ al_addr al = a /\ 1 <= id <= sub_count s) /\
  (forall id po, payouts s !! id = Some po -> po_id po = id /\ 1 <= id <= sub_count s) /\
  (forall id sb, subs s !! id = Some sb -> sb_id sb = id /\ 1 <= id <= sub_count s) /\
  (forall id x, sessions s !! id = Some x -> ss_id x = id /\ 1 <= id <= sess_count s).
Proof.
  intros s [_ _ _ [A B C _] [D _]]. split; [exact (fun id a => B (id, a))|]. split; [exact C|]. split.
  - intros id sb H. destruct (A _ _ H) as (E1 & E2 & _). auto.
  - intros id x H. destruct (D _ _ H) as (E1 & E2 & _). auto.
Qed.

(* A session is tied for life to the subscription, node and account it was started with:
   settlement (which reads [ss_sub]) can never be made against another subscription. *)
Theorem C18_session_keeps_its_subscription : forall s o s' id x x',
  kinv s -> step s o = OOk s' -> sessions s !! id = Some x -> sessions s' !! id = Some x' ->
  ss_sub x' = ss_sub x /\ ss_node x' = ss_node x /\ ss_addr x' = ss_addr x.
Proof.
  intros s o s' id x x' Hi H Hx Hx'. destruct (proj2 (evo_step s o s' Hi H)) as [[A B]|[A B C D]].
  - destruct (B _ _ Hx') as (y & Hy & S). rewrite Hx in Hy. injection Hy as <-. unfold sess_same in S. tauto.
  - destruct (decide (id = sess_count s + 1)) as [->|Hne].
    + destruct (k_ss _ (ki_sess _ Hi) _ _ Hx) as (_ & ? & _). lia.
    + rewrite (C _ _ Hne Hx') in Hx. injection Hx as <-. auto.
Qed.

(* non-vacuity: a history that creates two plans; they get identifiers 1 and 2 *)
Definition ex_cfg : config := {| c_deposit := [1%N]; c_feecoll := [2%N]; c_distr := [3%N]; c_swap := [4%N]; c_blocked := [] |}.
Definition ex_params : params :=
  {| p_prov_deposit := (1%N, 0); p_prov_share := 0; p_node_deposit := (1%N, 0); p_node_active := HOUR;
     p_max_gb := ∅; p_min_gb := ∅; p_max_hr := ∅; p_min_hr := ∅;
     p_max_sub_gb := 10; p_min_sub_gb := 1; p_max_sub_hr := 10; p_min_sub_hr := 1; p_node_share := 0;
     p_sub_delay := 120; p_sess_delay := 120; p_sess_proof := false;
     p_swap_enabled := true; p_swap_denom := 1%N; p_swap_approver := canon RAcc [9%N] |}.
Definition ex_genesis : genesis :=
  {| g_cfg := ex_cfg; g_balances := []; g_params := ex_params; g_inflations := []; g_mint := (1, 1, 1, 1); g_time := 0 |}.
Definition prov := {| ta_role := RAcc; ta_upper := false; ta_bytes := [7%N] |}.
Definition prov' := {| ta_role := RProv; ta_upper := false; ta_bytes := [7%N] |}.
Example C18_nonvacuous :
  match run (init ex_genesis)
            [OBegin 10; OTx (MProvRegister prov "p" "" "" "" true);
             OTx (MPlanCreate prov' 100 5 (Some [(1%N, 3)]));
             OTx (MPlanCreate prov' 0 5 (Some [(1%N, 3)]));          (* rejected: consumes no identifier *)
             OTx (MPlanCreate prov' 100 6 (Some [(1%N, 4)]))] with
  | RunOk s' => plan_count s' = 2 /\ map fst (map_to_list (plan_inact s')) = [1; 2]
  | _ => False
  end.
Proof. vm_compute. split; reflexivity. Qed.

Print Assumptions C18_invariant_everywhere.
Print Assumptions C18_subscriptions_sequential.
Print Assumptions C18_sessions_sequential.
Print Assumptions C18_plans_sequential.
Print Assumptions C18_rejected_consumes_none.
Print Assumptions C18_never_reissued.
Print Assumptions C18_children_carry_id.
Print Assumptions C18_session_keeps_its_subscription.
