(* C13 - Paged queries enumerate the complete result exactly once.
   Statements, and the non-vacuity examples; the model is Model/Paginate.v (cosmos-sdk v0.47.10 query.Paginate / query.FilteredPaginate
   over the key-sorted entries of a prefix store), proofs are in Proofs/PaginateThm.v, the table of the hub's
   list handlers is generated from /repo by translator/queries2coq.py into Gen/QueryShapes.v.

   [pages_completely q l ct rv n expected] (Proofs/PaginateThm.v) says, for limit l (0 = default 100),
   count_total ct, direction rv, a store of n entries:
   (a) following next_key from the empty key until it is empty takes at most n+1 requests and the pages
       concatenate to [expected];  (b) stepping offset 0, L, 2L, .. until a short page gives the same
       concatenation;  (b') so does stepping until no next_key comes back;  (c) with count_total (or
       limit 0) every offset-mode request reports total = |expected|.
   Side conditions: [key_sorted] (entries strictly ascending by key: what a KVStore iterator yields),
   [keys_nonempty] (no entry's key equals the store prefix itself), [no_wrap] (|store| + limit + 1 < 2^64:
   the paginators compute offset+limit and end+1 in uint64). *)
From Hub Require Import Base.Prelude Model.Paginate Proofs.PaginateThm Gen.QueryShapes.
Local Open Scope N_scope.

(* FilteredPaginate: for every limit, both directions, with and without count_total, every store, and every
   callback that on each store entry succeeds, reports its hit independently of [accumulate] and appends
   the entry exactly when it is a hit and accumulate is set: the pages are the matching entries in
   iteration order, each exactly once. *)
Theorem C13_filtered_paging_complete :
  forall (V R : Type) (cb : fcallback V R) (h : key -> V -> bool) (f : key -> V -> R)
         (items : list (key * V)) (l : N) (ct rv : bool),
  key_sorted items -> keys_nonempty items -> no_wrap items l ->
  hit_independent_of_accumulate cb h f items ->
  pages_completely (filtered_paginate cb items) l ct rv (length items)
    (map (fun kv => f (fst kv) (snd kv)) (order rv (List.filter (fun kv => h (fst kv) (snd kv)) items))).
Proof. exact @filtered_paging_complete. Qed.

(* Paginate: same, for every callback that succeeds on each store entry and appends it. *)
Theorem C13_plain_paging_complete :
  forall (V R : Type) (cb : callback V R) (f : key -> V -> R) (items : list (key * V)) (l : N) (ct rv : bool),
  key_sorted items -> keys_nonempty items -> no_wrap items l ->
  appends_each cb f items ->
  pages_completely (paginate cb items) l ct rv (length items)
    (map (fun kv => f (fst kv) (snd kv)) (order rv items)).
Proof. exact @paginate_paging_complete. Qed.

(* Every paginated list handler of the hub (the rows generated from the query servers' source) has a
   callback whose hit does not depend on accumulate and which appends only under accumulate (first
   conjunct).  Completeness (second conjunct) uses the first flag only: the model of a row, [run_query],
   takes its callback shape from [qs_hit_depends_on_accumulate]; for every filter [h] (status test) and
   record constructor [f]. *)
Theorem all_list_queries_complete :
  Forall (fun s => qs_hit_depends_on_accumulate s = false /\ qs_appends_unguarded s = false) query_shapes /\
  forall s, In s query_shapes ->
  forall (V R : Type) (h : key -> V -> bool) (f : key -> V -> R) (items : list (key * V)) (l : N) (ct rv : bool),
    key_sorted items -> keys_nonempty items -> no_wrap items l ->
    pages_completely (run_query s h f items) l ct rv (length items)
      (map (fun kv => f (fst kv) (snd kv)) (order rv (matching s h items))).
Proof. exact (shapes_complete query_shapes eq_refl). Qed.

(* The hypothesis on the callback is necessary: with the callback shape the two filtered handlers had
   before commit 629f405 (no hit unless accumulate), 5 matching entries and limit 2, count_total:
   following next_key yields 2 entries, stepping the offset yields 2 entries, total is 2. *)
Theorem C13_refuted_if_hit_depends_on_accumulate :
  key_sorted five /\ keys_nonempty five /\ no_wrap five 2 /\
  (forall pages, follow_keys 6 (filtered_paginate (defect_cb all_hit the_key) five)
                   (mk_req None 0 2 true false) = Some pages -> concat pages <> map fst five) /\
  (forall pages, step_offsets 6 (filtered_paginate (defect_cb all_hit the_key) five)
                   (mk_req None 0 2 true false) 2 0 = Some pages -> concat pages <> map fst five) /\
  (forall page resp, filtered_paginate (defect_cb all_hit the_key) five (mk_req None 0 2 true false) =
                       Ok (page, resp) -> total resp <> 5).
Proof. exact defect_incomplete. Qed.

(* ... and any generated row with hit_depends_on_accumulate = true is a handler that does not page completely. *)
Theorem C13_refuted_row :
  forall s, qs_paginator s = UsesFilteredPaginate -> qs_hit_depends_on_accumulate s = true ->
  ~ pages_completely (run_query s all_hit the_key five) 2 true false (length five)
      (map (fun kv => the_key (fst kv) (snd kv)) (order false (matching s all_hit five))).
Proof. exact defect_shape_incomplete. Qed.

(* The side condition no_wrap is necessary for offset stepping: FilteredPaginate with limit = 2^64-1,
   no count_total and a first entry that is not a hit returns an empty page (end+1 wraps to 0). *)
Theorem C13_refuted_at_max_limit :
  key_sorted two /\ keys_nonempty two /\
  filtered_paginate (good_cb flag_hit flag_key) two (mk_req None 0 (u64 - 1) false false) =
    Ok ([], mk_resp (Some [1]) 0) /\
  step_offsets 3 (filtered_paginate (good_cb flag_hit flag_key) two) (mk_req None 0 (u64 - 1) false false)
    (u64 - 1) 0 = Some [[]] /\
  follow_keys 3 (filtered_paginate (good_cb flag_hit flag_key) two) (mk_req None 0 (u64 - 1) false false) =
    Some [[]; [[2]]].
Proof. exact maxlimit_incomplete. Qed.

(* non-vacuity: a 5-entry store with a filter rejecting two entries, limit 2, reverse, count_total *)
Example C13_example_items_ok :
  key_sorted [([1], true); ([2], false); ([3], true); ([4], false); ([5], true)] /\
  keys_nonempty [([1], true); ([2], false); ([3], true); ([4], false); ([5], true)] /\
  no_wrap [([1], true); ([2], false); ([3], true); ([4], false); ([5], true)] 2.
Proof.
  split; [unfold key_sorted; repeat (constructor; try reflexivity)|].
  split; [unfold keys_nonempty; repeat (constructor; try discriminate)|].
  unfold no_wrap. vm_compute. reflexivity.
Qed.

Example C13_example_pages :
  follow_keys 6 (filtered_paginate (good_cb flag_hit flag_key)
                   [([1], true); ([2], false); ([3], true); ([4], false); ([5], true)])
             (mk_req None 0 2 true true) = Some [[[5]; [3]]; [[1]]] /\
  filtered_paginate (good_cb flag_hit flag_key)
     [([1], true); ([2], false); ([3], true); ([4], false); ([5], true)] (mk_req None 2 2 true true) =
    Ok ([[1]], mk_resp None 3).
Proof. split; vm_compute; reflexivity. Qed.

Example C13_rows_nonempty : query_shapes <> [].
Proof. discriminate. Qed.

Print Assumptions C13_filtered_paging_complete.
Print Assumptions C13_plain_paging_complete.
Print Assumptions all_list_queries_complete.
Print Assumptions C13_refuted_if_hit_depends_on_accumulate.
Print Assumptions C13_refuted_row.
Print Assumptions C13_refuted_at_max_limit.
