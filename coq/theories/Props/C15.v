(* C15 — Scheduled inflation changes take effect on time, once, in order.
   Statements only; proofs are in Proofs/MintThm.v. *)
From Hub Require Import Base.Prelude Base.Arith Model.Types Model.Keeper Model.Handlers Model.Hooks Model.Step.
From Hub Require Import Proofs.Tactics Proofs.Sorting Proofs.Frames Proofs.MintThm.
From Hub Require Import Gen.Wiring Proofs.WiringThm.

(* After the begin-of-block step at block time t: every entry with a timestamp at or before t
   has left the schedule, every later entry is untouched; if an entry was due, the minting
   parameters are those of the LATEST due entry and the inflation rate is its minimum;
   if none was due nothing changed.  [infl_ok]: entries are stored under their own timestamp
   and passed genesis validation (it holds at genesis and is preserved, see below). *)
Theorem C15_begin_block : forall s t s',
  infl_ok s -> step s (OBegin t) = OOk s' ->
  (forall k, inflations s' !! k = if bool_decide (k <= t) then None else inflations s !! k) /\
  (forall it, inflations s !! inf_ts it = Some it -> inf_ts it <= t ->
     (forall k x, inflations s !! k = Some x -> k <= t -> k <= inf_ts it) -> mint_is s' it) /\
  ((forall k x, inflations s !! k = Some x -> t < k) -> mint_same s s' /\ inflations s' = inflations s).
Proof. exact begin_step_mint. Qed.

(* Every other operation (transactions, governance, end-of-block) leaves the minting
   parameters and the schedule alone; entries are only ever removed, and only by the
   begin-of-block step of a block whose time has reached them. *)
Theorem C15_only_begin_block_applies : forall s o s',
  infl_ok s -> step s o = OOk s' ->
  infl_ok s' /\
  (forall k it, inflations s' !! k = Some it -> inflations s !! k = Some it) /\
  (forall k it, inflations s !! k = Some it -> inflations s' !! k = None -> exists t, o = OBegin t /\ k <= t) /\
  ((forall t, o <> OBegin t) -> mint_same s s' /\ inflations s' = inflations s).
Proof. exact schedule_step. Qed.

(* Over any history the schedule only shrinks: every entry present afterwards was present before,
   unchanged — so an entry removed when it was applied never comes back to be applied again. *)
Theorem C15_applied_at_most_once : forall ops s s',
  infl_ok s -> run s ops = RunOk s' ->
  infl_ok s' /\ (forall k it, inflations s' !! k = Some it -> inflations s !! k = Some it).
Proof. intros ops s s'. exact (schedule_run ops s 0%nat s'). Qed.

(* The step cannot panic (part of C03), and a validated genesis schedule satisfies [infl_ok]. *)
Theorem C15_never_halts : forall s t,
  infl_ok s -> exists s1, mint_begin_block (clear_events s <| now := t |>) = Ok s1.
Proof. exact mint_never_halts. Qed.

Theorem C15_genesis : forall g,
  Forall (fun it => mint_params_valid (inf_max it) (inf_min it) (inf_rate it) = true) (g_inflations g) ->
  infl_ok (init g).
Proof. exact infl_ok_init. Qed.

(* non-vacuity: two entries due in one block, one later; the later of the two due wins *)
Definition ex_cfg : config := {| c_deposit := [1%N]; c_feecoll := [2%N]; c_distr := [3%N]; c_swap := [4%N]; c_blocked := [] |}.
Definition ex_params : params :=
  {| p_prov_deposit := (1%N, 10); p_prov_share := 0; p_node_deposit := (1%N, 10); p_node_active := HOUR;
     p_max_gb := ∅; p_min_gb := ∅; p_max_hr := ∅; p_min_hr := ∅;
     p_max_sub_gb := 10; p_min_sub_gb := 1; p_max_sub_hr := 10; p_min_sub_hr := 1; p_node_share := 0;
     p_sub_delay := 120; p_sess_delay := 120; p_sess_proof := false;
     p_swap_enabled := true; p_swap_denom := 1%N; p_swap_approver := canon RAcc [9%N] |}.
Definition ex_genesis : genesis :=
  {| g_cfg := ex_cfg; g_balances := []; g_params := ex_params;
     g_inflations := [ {| inf_max := 30; inf_min := 10; inf_rate := 5; inf_ts := 100 |};
                       {| inf_max := 40; inf_min := 20; inf_rate := 6; inf_ts := 200 |};
                       {| inf_max := 50; inf_min := 25; inf_rate := 7; inf_ts := 900 |} ];
     g_mint := (1, 1, 1, 1); g_time := 0 |}.
Example C15_nonvacuous :
  match step (init ex_genesis) (OBegin 500) with
  | OOk s' => (mint_max s', mint_min s', mint_rate s', mint_inflation s') = (40, 20, 6, 20) /\
              map fst (map_to_list (inflations s')) = [900]
  | _ => False
  end.
Proof. vm_compute. split; reflexivity. Qed.

Section wiring.
Local Open Scope string_scope.
(* app wiring (regenerated from app/module.go on every run): the schedule hook runs before the SDK mint module's
   begin-blocker, which therefore mints with the parameters of the entry that became due in this very block *)
Theorem C15_schedule_hook_runs_before_sdk_mint : runs_before "customminttypes.ModuleName" "minttypes.ModuleName" begin_blockers.
Proof. exact custommint_before_mint. Qed.
End wiring.

Print Assumptions C15_begin_block.
Print Assumptions C15_only_begin_block_applies.
Print Assumptions C15_applied_at_most_once.
Print Assumptions C15_never_halts.
Print Assumptions C15_genesis.
Print Assumptions C15_schedule_hook_runs_before_sdk_mint.
